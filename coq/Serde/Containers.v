(* Byte formats of the VM's data containers as schemas (core/src/stack/{inputs,outputs}.rs,
   core/src/program/{mod,info}.rs), with the validation StackOutputs applies on top of the codec. *)
From Coq Require Import ZArith List Bool Lia.
From MV Require Import Base.Field Serde.Codec Serde.CodecProps.
Import ListNotations.
Open Scope Z_scope.

Definition S_stack_inputs : schema := SSeq SU32 SFelt.
Definition S_digest : schema := SArr 4 SFelt.
Definition S_kernel : schema := SSeq SU16 S_digest.
Definition S_program_info : schema := SPair S_digest S_kernel.
Definition S_stack_outputs_raw : schema := SPair (SSeq SU32 SU64) (SSeq SU32 SU64).

(* none of these formats is recursive; eight units of fuel cover their height *)
Definition dfuel : nat := 8.
Notation enc := (Codec.enc SUnit).
Notation wt := (Codec.wt SUnit).
Definition dec (s : schema) (bs : list byte) := Codec.dec SUnit dfuel s bs.

Definition ints (l : list Z) : value := VList (map VN l).
Fixpoint unints (l : list value) : option (list Z) :=
  match l with
  | [] => Some []
  | VN x :: r => match unints r with Some t => Some (x :: t) | None => None end
  | _ => None
  end.

Lemma unints_ints l : unints (map VN l) = Some l.
Proof. induction l as [|x l IH]; cbn; [reflexivity | rewrite IH; reflexivity]. Qed.

(* StackOutputs::new: at most 65535 elements, every element and address canonical, the stack
   padded with zeros to 16, and (depth - 15) overflow addresses when deeper than 16 *)
Definition pad16 (l : list Z) : list Z := l ++ repeat 0 (16 - length l).

Definition so_new (stack addrs : list Z) : option (list Z * list Z) :=
  if 65535 <? Z.of_nat (length stack) then None
  else if negb (forallb (fun x => (0 <=? x) && (x <? P)) stack) then None
  else if negb (forallb (fun x => (0 <=? x) && (x <? P)) addrs) then None
  else
    let st := pad16 stack in
    let want := if Nat.ltb 16 (length st) then (length st + 1 - 16)%nat else O in
    if Nat.eqb (length addrs) want then Some (st, addrs) else None.

Definition so_enc (so : list Z * list Z) : list byte :=
  enc S_stack_outputs_raw (VPair (ints (fst so)) (ints (snd so))).

Definition so_dec (bs : list byte) : option ((list Z * list Z) * list byte) :=
  match dec S_stack_outputs_raw bs with
  | Some (VPair (VList a) (VList b), r) =>
      match unints a, unints b with
      | Some st, Some ad => match so_new st ad with Some so => Some (so, r) | None => None end
      | _, _ => None
      end
  | _ => None
  end.

(* the constructors that take integers reject anything that is not a canonical field element *)
Definition canonical (x : Z) : bool := (0 <=? x) && (x <? P).
Definition si_try (l : list Z) : option (list Z) := if forallb canonical l then Some l else None.

Lemma pad16_length l : length (pad16 l) = Nat.max (length l) 16.
Proof. unfold pad16. rewrite app_length, repeat_length. lia. Qed.

Lemma pad16_idem l : pad16 (pad16 l) = pad16 l.
Proof.
  unfold pad16 at 1. rewrite pad16_length. replace (16 - _)%nat with O by lia. apply app_nil_r.
Qed.

Lemma forallb_pad16 f l : f 0 = true -> forallb f l = true -> forallb f (pad16 l) = true.
Proof.
  intros H0 Hl. unfold pad16. rewrite forallb_app, Hl. apply forallb_forall.
  intros x ->%repeat_spec. exact H0.
Qed.

Lemma so_new_iff st ad so :
  so_new st ad = Some so <->
  so = (pad16 st, ad) /\ Z.of_nat (length st) <= 65535 /\
  forallb canonical st = true /\ forallb canonical ad = true /\
  length ad = (if Nat.ltb 16 (length (pad16 st)) then length (pad16 st) + 1 - 16 else 0)%nat.
Proof.
  unfold so_new. fold canonical. split.
  - destruct (65535 <? _) eqn:L; [discriminate|].
    destruct (forallb canonical st); [|discriminate]. destruct (forallb canonical ad); [|discriminate].
    destruct (length ad =? _)%nat eqn:E; [|discriminate]. intros [= <-]. repeat split; lia.
  - intros (-> & L & -> & -> & ->). rewrite Nat.eqb_refl. destruct (65535 <? _) eqn:E; [lia | reflexivity].
Qed.

(* what the constructor returns is a fixed point of the constructor *)
Lemma so_new_idem st ad st' ad' : so_new st ad = Some (st', ad') -> so_new st' ad' = Some (st', ad').
Proof.
  intros ([= -> ->] & L & Hs & Ha & Hl)%so_new_iff. apply so_new_iff.
  rewrite pad16_idem. repeat split; auto using forallb_pad16. rewrite pad16_length. lia.
Qed.

Lemma wt_ints_u64 l : forallb (fun x => (0 <=? x) && (x <? P)) l = true ->
  forallb (wt SU64) (map VN l) = true.
Proof. apply forallb_map_impl. intros x. cbn. unfold P. lia. Qed.

Lemma wt_seq32_unfold vs :
  wt (SSeq SU32 SU64) (VList vs) = int_ok SU32 (Z.of_nat (length vs)) && forallb (wt SU64) vs.
Proof. reflexivity. Qed.

Lemma wt_seq32 l :
  Z.of_nat (length l) < 4294967296 -> forallb (fun x => (0 <=? x) && (x <? P)) l = true ->
  wt (SSeq SU32 SU64) (ints l) = true.
Proof.
  intros Hl Hf. unfold ints. rewrite wt_seq32_unfold, map_length, wt_ints_u64 by exact Hf. cbn [int_ok]. lia.
Qed.

Lemma wt_pair_unfold a b x y : wt (SPair a b) (VPair x y) = wt a x && wt b y.
Proof. reflexivity. Qed.

Lemma need_ints s l : (Codec.need SUnit (SSeq s SU64) (ints l) <= 2)%nat.
Proof.
  unfold ints. cbn [Codec.need]. rewrite map_map. apply le_n_S, list_max_map_le. intros x. apply le_n.
Qed.

Lemma need_so a b : (Codec.need SUnit S_stack_outputs_raw (VPair (ints a) (ints b)) <= dfuel)%nat.
Proof.
  unfold S_stack_outputs_raw, dfuel. cbn [Codec.need].
  pose proof (need_ints SU32 a). pose proof (need_ints SU32 b). lia.
Qed.

(* what the constructor returns is well typed for the raw codec *)
Lemma so_new_wt st ad st' ad' :
  so_new st ad = Some (st', ad') -> wt S_stack_outputs_raw (VPair (ints st') (ints ad')) = true.
Proof.
  intros ([= -> ->] & L & Hs & Ha & Hl)%so_new_iff. unfold S_stack_outputs_raw.
  rewrite wt_pair_unfold, !wt_seq32; auto using forallb_pad16.
  - rewrite Hl. destruct (Nat.ltb _ _); rewrite ?pad16_length; lia.
  - rewrite pad16_length. lia.
Qed.

(* C10 for StackOutputs: what the constructor builds survives serialisation *)
Theorem so_roundtrip st ad so r : so_new st ad = Some so -> so_dec (so_enc so ++ r) = Some (so, r).
Proof.
  destruct so as [st' ad']. intros En. unfold so_dec, so_enc, dec, ints. cbn [fst snd].
  rewrite roundtrip, !unints_ints, (so_new_idem _ _ _ _ En) by (exact (so_new_wt _ _ _ _ En) || apply need_so).
  reflexivity.
Qed.

(* C19 for StackOutputs: whatever is accepted re-serialises to bytes that decode to an equal value *)
Theorem so_reencode bs so r : so_dec bs = Some (so, r) -> so_dec (so_enc so) = Some (so, []).
Proof.
  unfold so_dec at 1.
  destruct (dec S_stack_outputs_raw bs) as [[[| | |[| |a| | |] [| |b| | |]| |] t]|]; try discriminate.
  destruct (unints a) as [st|], (unints b) as [ad|]; try discriminate.
  destruct (so_new st ad) as [so'|] eqn:En; [|discriminate]. intros [= <- <-].
  rewrite <- (app_nil_r (so_enc so')). exact (so_roundtrip st ad so' [] En).
Qed.

Theorem so_new_rejects_noncanonical st ad x :
  In x st \/ In x ad -> canonical x = false -> so_new st ad = None.
Proof.
  intros Hin Hx. destruct (so_new st ad) as [so|] eqn:E; [|reflexivity].
  apply so_new_iff in E as (_ & _ & Hs & Ha & _). rewrite forallb_forall in Hs, Ha.
  destruct Hin as [Hin%Hs|Hin%Ha]; congruence.
Qed.

Theorem si_try_rejects_noncanonical l x : In x l -> canonical x = false -> si_try l = None.
Proof.
  intros Hin Hx. unfold si_try. destruct (forallb canonical l) eqn:E; [|reflexivity].
  rewrite forallb_forall in E. specialize (E x Hin). congruence.
Qed.

(* the decoders of the plain containers, with everything the codec proves about them *)
Theorem data_roundtrip s v r : wt s v = true -> (Codec.need SUnit s v <= dfuel)%nat ->
  dec s (enc s v ++ r) = Some (v, r).
Proof. apply roundtrip. Qed.

Theorem data_reencode s bs v r : dec s bs = Some (v, r) ->
  wt s v = true /\ bs = enc s v ++ r /\ dec s (enc s v) = Some (v, []).
Proof.
  (* [dec] is unfolded by hand: left to unification, its eight units of fuel are too *)
  unfold dec. intros H. destruct (accepted_is_canonical SUnit dfuel s bs v r H) as (Hwt & Hbs & _).
  exact (conj Hwt (conj Hbs (reencode SUnit dfuel s bs v r H))).
Qed.

(* non-vacuity: a kernel with two procedures, stack inputs, stack outputs with an overflow address *)
Example kernel_sample_ok :
  wt S_kernel (VList [VList [VN 1; VN 2; VN 3; VN 4]; VList [VN 5; VN 6; VN 7; VN (P - 1)]]) = true /\
  so_new [1; 2; 3] [] <> None /\
  so_new [1;2;3;4;5;6;7;8;9;10;11;12;13;14;15;16;17] [5; 6] <> None.
Proof. vm_compute. repeat split; discriminate. Qed.
