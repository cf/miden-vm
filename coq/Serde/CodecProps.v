(* Round trip and re-encoding for every schema. *)
From Coq Require Import ZArith List Bool Lia ZifyBool.
From MV Require Import Base.Field Serde.Codec.
Import ListNotations.
Open Scope Z_scope.

Lemma le_val_le_bytes n x : 0 <= x < 256 ^ Z.of_nat n -> le_val (le_bytes n x) = x.
Proof.
  revert x. induction n as [|n IH]; intros x Hx; cbn [le_bytes le_val].
  - lia.
  - rewrite Nat2Z.inj_succ, Z.pow_succ_r in Hx by lia.
    rewrite IH by (split; [apply Z.div_pos | apply Z.div_lt_upper_bound]; lia).
    pose proof (Z.div_mod x 256). lia.
Qed.

Lemma le_bytes_length n x : length (le_bytes n x) = n.
Proof. revert x; induction n; intros; cbn; auto. Qed.

Lemma le_bytes_bytes n x : forallb is_byte (le_bytes n x) = true.
Proof.
  revert x. induction n as [|n IH]; intros x; cbn [le_bytes forallb]; [reflexivity|].
  rewrite IH. unfold is_byte. pose proof (Z.mod_pos_bound x 256). lia.
Qed.

Lemma le_bytes_le_val bs : forallb is_byte bs = true -> le_bytes (length bs) (le_val bs) = bs.
Proof.
  induction bs as [|b r IH]; cbn [forallb length le_bytes le_val]; intros H; [reflexivity|].
  unfold is_byte in H at 1. rewrite (Z.mul_comm 256), Z_mod_plus_full, Z_div_plus_full, Z.mod_small, Z.div_small, Z.add_0_l, IH by lia.
  reflexivity.
Qed.

Lemma take_app n (h r : list byte) : length h = n -> take n (h ++ r) = Some (h, r).
Proof.
  intros <-. induction h as [|b h IH]; cbn [length take app]; [reflexivity|]. rewrite IH. reflexivity.
Qed.

Lemma take_spec n : forall bs h r, take n bs = Some (h, r) -> bs = h ++ r /\ length h = n.
Proof.
  induction n as [|n IH]; intros bs h r H; cbn [take] in H.
  - injection H as <- <-. split; reflexivity.
  - destruct bs as [|b t]; [discriminate|]. destruct (take n t) as [[h' r']|] eqn:E; [|discriminate].
    injection H as <- <-. destruct (IH _ _ _ E) as [-> <-]. split; reflexivity.
Qed.

Lemma int_width_pos s : forall w, int_width s = Some w -> (1 <= w)%nat.
Proof. induction s; cbn [int_width]; intros w Hw; try discriminate; auto; injection Hw as <-; lia. Qed.

Lemma int_ok_range s : forall x w, int_width s = Some w -> int_ok s x = true -> 0 <= x < 256 ^ Z.of_nat w.
Proof.
  induction s; cbn [int_width int_ok]; intros x w Hw H; try discriminate;
    [injection Hw as <-; unfold P in *; cbn; lia .. | apply IHs; [exact Hw | lia]].
Qed.

Lemma dec_int_enc s w x r :
  int_width s = Some w -> int_ok s x = true -> dec_int s (le_bytes w x ++ r) = Some (x, r).
Proof.
  intros Hw Hok. unfold dec_int.
  rewrite Hw, take_app, le_bytes_bytes, le_val_le_bytes, Hok by (apply le_bytes_length || eapply int_ok_range; eauto).
  reflexivity.
Qed.

Lemma dec_int_inv s bs x r :
  dec_int s bs = Some (x, r) ->
  exists w, int_width s = Some w /\ int_ok s x = true /\ bs = le_bytes w x ++ r.
Proof.
  unfold dec_int. destruct (int_width s) as [w|]; [|discriminate].
  destruct (take w bs) as [[h t]|] eqn:Ht; [|discriminate].
  destruct (forallb is_byte h) eqn:Eb, (int_ok s (le_val h)) eqn:Eo; try discriminate.
  intros [= <- <-]. apply take_spec in Ht as [-> <-]. exists (length h). rewrite le_bytes_le_val by exact Eb. auto.
Qed.

Lemma list_max_cons a l : list_max (a :: l) = Nat.max a (list_max l).
Proof. reflexivity. Qed.

Lemma list_max_map_le {A} (h : A -> nat) k l : (forall x, h x <= k)%nat -> (list_max (map h l) <= k)%nat.
Proof. intros H. apply list_max_le, Forall_map, Forall_forall. intros x _. apply H. Qed.

Lemma forallb_map_impl {A B} (p : A -> bool) (q : B -> bool) (g : A -> B) l :
  (forall x, p x = true -> q (g x) = true) -> forallb p l = true -> forallb q (map g l) = true.
Proof. intros H. induction l as [|x l IH]; cbn [forallb map]; [|specialize (H x)]; lia. Qed.

Section Props.
Variable rec : schema.
Notation wt := (wt rec).
Notation enc := (enc rec).
Notation dec := (dec rec).
Notation need := (need rec).

(* an integer value under an integer schema: the one shape at which wt, enc, need and dec do not
   compute before the schema is known *)
Lemma wt_int s x : wt s (VN x) = match int_width s with Some _ => int_ok s x | None => false end.
Proof. destruct s; reflexivity. Qed.

Lemma enc_int s x : enc s (VN x) = match int_width s with Some w => le_bytes w x | None => [] end.
Proof. destruct s; reflexivity. Qed.

Lemma need_int s x : need s (VN x) = 1%nat.
Proof. destruct s; reflexivity. Qed.

Lemma dec_int_schema f s w bs :
  int_width s = Some w ->
  dec (S f) s bs = match dec_int s bs with Some (x, r) => Some (VN x, r) | None => None end.
Proof. destruct s; try discriminate; reflexivity. Qed.

(* induction on well-typedness: the one place where schema and value are matched against each
   other.  What follows about well-typed values starts here (elim H using wt_ind) and finds the
   value in the shape its schema dictates. *)
Lemma wt_ind (Q : schema -> value -> Prop) :
  (forall s x w, int_width s = Some w -> int_ok s x = true -> Q s (VN x)) ->
  Q SUnit VUnit ->
  (forall c e l w, int_width c = Some w -> int_ok c (Z.of_nat (length l)) = true ->
     forallb (wt e) l = true -> Forall (Q e) l -> Q (SSeq c e) (VList l)) ->
  (forall e l, forallb (wt e) l = true -> Forall (Q e) l -> Q (SArr (length l) e) (VList l)) ->
  (forall a b x y, wt a x = true -> wt b y = true -> Q a x -> Q b y -> Q (SPair a b) (VPair x y)) ->
  (forall tbl t s' x, lookup t tbl = Some s' -> is_byte t = true -> wt s' x = true -> Q s' x ->
     Q (STag tbl) (VTag t x)) ->
  (forall x, wt rec x = true -> Q rec x -> Q SVar (VRec x)) ->
  forall s v, wt s v = true -> Q s v.
Proof.
  intros HN HU HS HA HP HT HR. fix go 2. intros s v H. destruct v as [x| |l|x y|t x|x].
  - rewrite wt_int in H. destruct (int_width s) as [w|] eqn:Hw; [|discriminate]. exact (HN s x w Hw H).
  - destruct s; try discriminate H. exact HU.
  - assert (HF : forall e, forallb (wt e) l = true -> Forall (Q e) l).
    { clear H. intros e. induction l as [|v l IH]; cbn [forallb]; intros Hl; [constructor|].
      constructor; [apply go | apply IH]; lia. }
    destruct s as [| | | | | | |c e|n e| | |]; try discriminate H; cbn [Codec.wt] in H.
    + destruct (int_width c) as [w|] eqn:Hw; [|discriminate]. apply (HS c e l w Hw); [| |apply HF]; lia.
    + assert (n = length l) as -> by lia. apply HA; [|apply HF]; lia.
  - destruct s; try discriminate H. cbn [Codec.wt] in H. apply HP; try apply go; lia.
  - destruct s; try discriminate H. cbn [Codec.wt] in H. destruct (lookup t tbl) as [s'|] eqn:Hl; [|discriminate].
    apply (HT tbl t s' x Hl); try apply go; lia.
  - destruct s; try discriminate H. apply HR; try apply go; exact H.
Qed.

Lemma enc_nonempty : forall s v, wt s v = true -> nonempty s = true -> (1 <= length (enc s v))%nat.
Proof.
  intros s v H. elim H using wt_ind; clear s v H.
  - intros s x w Hw _ _. rewrite enc_int, Hw, le_bytes_length. exact (int_width_pos s w Hw).
  - discriminate.
  - intros c e l w Hw _ _ _ _. cbn [Codec.enc]. rewrite Hw, app_length, le_bytes_length.
    pose proof (int_width_pos c w Hw). lia.
  - intros e l _ IH Hne. cbn [nonempty] in Hne. destruct IH as [|x l IHx _]; [discriminate|].
    cbn [Codec.enc flat_map]. rewrite app_length. assert (nonempty e = true) as He%IHx by lia. lia.
  - intros a b x y _ _ IHa IHb Hne. cbn [nonempty] in Hne. cbn [Codec.enc]. rewrite app_length.
    apply orb_true_iff in Hne as [H%IHa|H%IHb]; lia.
  - intros tbl t s' x Hl _ _ _ _. cbn [Codec.enc]. rewrite Hl. cbn [length]. lia.
  - discriminate.
Qed.

Lemma flat_map_length_ge (e : schema) l :
  nonempty e = true -> forallb (wt e) l = true -> (length l <= length (flat_map (enc e) l))%nat.
Proof.
  intros Hne. induction l as [|x l IH]; cbn [forallb flat_map length]; [lia|].
  intros [Hx%enc_nonempty Hl%IH]%andb_true_iff; [|exact Hne]. rewrite app_length. lia.
Qed.

(* on the encoder's own output the clamp does not bite: every element took at least a byte *)
Lemma clamp_exact e l r :
  forallb (wt e) l = true ->
  clamp e (Z.of_nat (length l)) (flat_map (enc e) l ++ r) = length l.
Proof.
  intros Hl. unfold clamp. destruct (nonempty e) eqn:Hne; [|apply Nat2Z.id].
  pose proof (flat_map_length_ge e l Hne Hl). rewrite app_length. lia.
Qed.

Lemma dec_n_enc (e : schema) l :
  Forall (fun v => forall f r, (need e v <= f)%nat -> dec f e (enc e v ++ r) = Some (v, r)) l ->
  forall f r, (list_max (map (need e) l) <= f)%nat ->
  dec_n (dec f e) (length l) (flat_map (enc e) l ++ r) = Some (l, r).
Proof.
  intros IH f. induction IH as [|v l Hv _ IHl]; intros r Hm; cbn [length dec_n flat_map]; [reflexivity|].
  cbn [map] in Hm. rewrite list_max_cons in Hm. rewrite <- app_assoc, Hv, IHl by lia. reflexivity.
Qed.

(* C10: decoding an encoding gives the value back and leaves what follows alone *)
Theorem roundtrip : forall fuel s v r,
  wt s v = true -> (need s v <= fuel)%nat -> dec fuel s (enc s v ++ r) = Some (v, r).
Proof.
  intros fuel s v r H. revert fuel r. elim H using wt_ind; clear s v H.
  - intros s x w Hw Hok [|f] r Hn; [rewrite need_int in Hn; lia|].
    rewrite (dec_int_schema f s w), enc_int, Hw, (dec_int_enc s w x r Hw Hok) by exact Hw. reflexivity.
  - intros [|f] r Hn; [cbn in Hn; lia | reflexivity].
  - intros c e l w Hw Hc Hl IH [|f] r Hn; cbn [Codec.need] in Hn; [lia|]. cbn [Codec.enc Codec.dec].
    rewrite Hw, <- app_assoc, (dec_int_enc c w _ _ Hw Hc), clamp_exact, (dec_n_enc e l IH), Z.eqb_refl
      by (exact Hl || lia).
    reflexivity.
  - intros e l _ IH [|f] r Hn; cbn [Codec.need] in Hn; [lia|]. cbn [Codec.enc Codec.dec].
    rewrite (dec_n_enc e l IH) by lia. reflexivity.
  - intros a b x y _ _ IHa IHb [|f] r Hn; cbn [Codec.need] in Hn; [lia|]. cbn [Codec.enc Codec.dec].
    rewrite <- app_assoc, IHa, IHb by lia. reflexivity.
  - intros tbl t s' x Hlk Ht _ IH [|f] r Hn; cbn [Codec.need] in Hn; rewrite Hlk in Hn; [lia|].
    cbn [Codec.enc]. rewrite Hlk. cbn [app Codec.dec]. rewrite Ht, Hlk, IH by lia. reflexivity.
  - intros x _ IH [|f] r Hn; cbn [Codec.need] in Hn; [lia|]. cbn [Codec.enc Codec.dec].
    rewrite IH by lia. reflexivity.
Qed.

Lemma dec_n_inv f (e : schema) :
  (forall bs v r, dec f e bs = Some (v, r) -> wt e v = true /\ bs = enc e v ++ r /\ (need e v <= f)%nat) ->
  forall n bs vs r, dec_n (dec f e) n bs = Some (vs, r) ->
  length vs = n /\ forallb (wt e) vs = true /\ bs = flat_map (enc e) vs ++ r /\
  (list_max (map (need e) vs) <= f)%nat.
Proof.
  intros IH. induction n as [|n IHn]; intros bs vs r H; cbn [dec_n] in H.
  - injection H as <- <-. cbn. repeat split; lia.
  - destruct (dec f e bs) as [[v t]|] eqn:E; [|discriminate].
    destruct (dec_n (dec f e) n t) as [[vs' r']|] eqn:E2; [|discriminate].
    injection H as <- <-. destruct (IH _ _ _ E) as (Hv & -> & Hnv), (IHn _ _ _ E2) as (Hl & Hw & -> & Hm).
    cbn [length forallb flat_map map]. rewrite list_max_cons, Hl, Hv, Hw, <- app_assoc.
    repeat split; lia.
Qed.

(* C19: what is accepted is a well-typed value in its unique encoding *)
Theorem accepted_is_canonical : forall fuel s bs v r,
  dec fuel s bs = Some (v, r) -> wt s v = true /\ bs = enc s v ++ r /\ (need s v <= fuel)%nat.
Proof.
  induction fuel as [|f IH]; intros s bs v r H; [discriminate|].
  destruct s as [| | | | |lo hi s| |c e|n e|a b|tbl|]; cbn [Codec.dec] in H.
  1-6: (* integers *)
    destruct (dec_int _ bs) as [[x t]|] eqn:E; [|discriminate]; injection H as <- <-;
    apply dec_int_inv in E as (w & Hw & Hok & ->); rewrite wt_int, enc_int, need_int, Hw;
    repeat split; [exact Hok | lia].
  - (* SUnit *) injection H as <- <-. cbn. repeat split; lia.
  - (* SSeq *)
    destruct (dec_int c bs) as [[n t]|] eqn:E; [|discriminate].
    destruct (dec_n (dec f e) (clamp e n t) t) as [[vs r']|] eqn:E2; [|discriminate].
    destruct (Z.eqb_spec (Z.of_nat (length vs)) n) as [<-|]; [|discriminate]. injection H as <- <-.
    apply dec_int_inv in E as (w' & Hw' & Hok & ->).
    destruct (dec_n_inv f e (IH e) _ _ _ _ E2) as (_ & Hwt & -> & Hm).
    cbn [Codec.wt Codec.enc Codec.need]. rewrite Hw', Hok, Hwt, <- app_assoc. repeat split. lia.
  - (* SArr *)
    destruct (dec_n (dec f e) n bs) as [[vs r']|] eqn:E2; [|discriminate]. injection H as <- <-.
    destruct (dec_n_inv f e (IH e) _ _ _ _ E2) as (Hl & Hwt & -> & Hm).
    cbn [Codec.wt Codec.enc Codec.need]. rewrite Hl, Nat.eqb_refl, Hwt. repeat split. lia.
  - (* SPair *)
    destruct (dec f a bs) as [[x t]|] eqn:E; [|discriminate].
    destruct (dec f b t) as [[y r']|] eqn:E2; [|discriminate]. injection H as <- <-.
    destruct (IH _ _ _ _ E) as (Hx & -> & Hnx), (IH _ _ _ _ E2) as (Hy & -> & Hny).
    cbn [Codec.wt Codec.enc Codec.need]. rewrite Hx, Hy, <- app_assoc. repeat split. lia.
  - (* STag *)
    destruct bs as [|t bs]; [discriminate|]. destruct (is_byte t) eqn:Ht; [|discriminate].
    destruct (lookup t tbl) as [s'|] eqn:Hlk; [|discriminate].
    destruct (dec f s' bs) as [[x r']|] eqn:E; [|discriminate]. injection H as <- <-.
    destruct (IH _ _ _ _ E) as (Hx & -> & Hnx).
    cbn [Codec.wt Codec.enc Codec.need]. rewrite Hlk, Ht, Hx. repeat split. lia.
  - (* SVar *)
    destruct (dec f rec bs) as [[x r']|] eqn:E; [|discriminate]. injection H as <- <-.
    destruct (IH _ _ _ _ E) as (Hx & -> & Hnx).
    cbn [Codec.wt Codec.enc Codec.need]. repeat split; [exact Hx | lia].
Qed.

(* C19: any accepted value re-serialises to bytes that decode to an equal value, nothing left *)
Corollary reencode : forall fuel s bs v r,
  dec fuel s bs = Some (v, r) -> dec fuel s (enc s v) = Some (v, []).
Proof.
  intros fuel s bs v r H. destruct (accepted_is_canonical fuel s bs v r H) as [Hwt [_ Hn]].
  rewrite <- (app_nil_r (enc s v)). apply roundtrip; assumption.
Qed.

Corollary dec_fuel_mono : forall f f' s bs v r,
  dec f s bs = Some (v, r) -> (f <= f')%nat -> dec f' s bs = Some (v, r).
Proof.
  intros f f' s bs v r H Hf. destruct (accepted_is_canonical f s bs v r H) as [Hwt [-> Hn]].
  apply roundtrip; [exact Hwt | lia].
Qed.

Corollary dec_prefix : forall fuel s bs v r, dec fuel s bs = Some (v, r) -> exists h, bs = h ++ r.
Proof. intros fuel s bs v r H. destruct (accepted_is_canonical fuel s bs v r H) as [_ [-> _]]. eauto. Qed.

End Props.
