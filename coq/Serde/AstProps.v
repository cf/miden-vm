(* The serialised AST (Serde/Ast.v): the writer's tables and the reader's emit the same bytes for every
   value the reader's schema types (agree, enc_agree), so the round trip and its converse of CodecProps
   hold between the real writer and the real reader, for every container around the nodes. *)
From Coq Require Import ZArith List Bool Lia.
From MV Require Import Serde.Codec Serde.CodecProps Serde.Ast.
Import ListNotations.
Open Scope Z_scope.

Lemma tables_agree_ok : tables_agree = true.
Proof. vm_compute. reflexivity. Qed.

(* what the writer emits is what the reader's schema would emit *)
Lemma agree_width : forall f de ser, agree f de ser = true -> int_width de = int_width ser.
Proof.
  induction f as [|f IH]; intros de ser H; [discriminate|].
  destruct de, ser; try discriminate H; try reflexivity; exact (IH _ _ H).
Qed.

Lemma in_all_tags t : is_byte t = true -> In t all_tags.
Proof.
  unfold is_byte, all_tags. intros H. apply in_map_iff. exists (Z.to_nat t). split; [|apply in_seq]; lia.
Qed.

Section EncAgree.
Variables rd rw : schema.       (* what SVar stands for on the reader's and the writer's side *)
Variable f0 : nat.
Hypothesis Hrec : agree f0 rd rw = true.

Lemma enc_agree_list f e e' l :
  agree f e e' = true ->
  Forall (fun v => forall f ser, agree f e ser = true -> enc rw ser v = enc rd e v) l ->
  flat_map (enc rw e') l = flat_map (enc rd e) l.
Proof.
  intros He IH. rewrite !flat_map_concat_map. f_equal. apply map_ext_Forall.
  revert IH. apply Forall_impl. intros v Hv. exact (Hv f e' He).
Qed.

Lemma enc_agree : forall de v, wt rd de v = true ->
  forall f ser, agree f de ser = true -> enc rw ser v = enc rd de v.
Proof.
  intros de v H. elim H using wt_ind; clear de v H.
  - (* integers: only the width matters *)
    intros de x w _ _ f ser Hw%agree_width. rewrite !enc_int, Hw. reflexivity.
  - intros f ser _. destruct ser; reflexivity.
  - intros c e l w _ _ _ IH [|f] ser Hag; [discriminate|].
    destruct ser as [| | | | | | |c' e'| | | |]; try discriminate Hag.
    apply andb_true_iff in Hag as [Hc%agree_width He]. cbn [enc].
    rewrite <- Hc, (enc_agree_list f e e' l He IH). reflexivity.
  - intros e l _ IH [|f] ser Hag; [discriminate|].
    destruct ser as [| | | | | | | |n' e'| | |]; try discriminate Hag.
    apply andb_true_iff in Hag as [_ He]. exact (enc_agree_list f e e' l He IH).
  - intros a b x y _ _ IHa IHb [|f] ser Hag; [discriminate|].
    destruct ser; try discriminate Hag.
    apply andb_true_iff in Hag as [Ha Hb]. cbn [enc]. rewrite (IHa f _ Ha), (IHb f _ Hb). reflexivity.
  - intros tbl t s' x Hl Ht _ IH [|f] ser Hag; [discriminate|].
    destruct ser as [| | | | | | | | | |tbl'|]; try discriminate Hag. cbn [agree] in Hag.
    rewrite forallb_forall in Hag. specialize (Hag t (in_all_tags t Ht)). rewrite Hl in Hag.
    cbn [enc]. rewrite Hl. destruct (lookup t tbl'); [|discriminate]. rewrite (IH f _ Hag). reflexivity.
  - intros x _ IH [|f] ser Hag; [discriminate|].
    destruct ser; try discriminate Hag. exact (IH f0 rw Hrec).
Qed.
End EncAgree.

(* C10 / C19 for the AST containers *)
Lemma nodes_agree : agree 10 S_node S_node_w = true.
Proof. vm_compute. reflexivity. Qed.

(* a container schema is the same on both sides; only what SVar stands for differs *)
Lemma agree_program : agree 30 S_program S_program = true.  Proof. vm_compute. reflexivity. Qed.
Lemma agree_module : agree 30 S_module S_module = true.     Proof. vm_compute. reflexivity. Qed.
Lemma agree_lib_head : agree 30 S_lib_head S_lib_head = true. Proof. vm_compute. reflexivity. Qed.
Lemma agree_proc : agree 30 S_proc S_proc = true.           Proof. vm_compute. reflexivity. Qed.

Section Containers.
Variable s : schema.
Variable k : nat.
Hypothesis Hs : agree k s s = true.

(* the bytes the writer produces (writer-side tables) decode (reader-side tables) to the value *)
Theorem ast_roundtrip : forall fuel v r,
  wt S_node s v = true -> (need S_node s v <= fuel)%nat ->
  dec S_node fuel s (enc S_node_w s v ++ r) = Some (v, r).
Proof.
  intros fuel v r Hwt Hn.
  rewrite (enc_agree S_node S_node_w 10 nodes_agree s v Hwt k s Hs).
  apply roundtrip; assumption.
Qed.

(* whatever the reader accepts is well formed, was the writer's own encoding of it, and the
   writer's bytes for it decode to it again with nothing left over *)
Theorem ast_reencode : forall fuel bs v r,
  dec S_node fuel s bs = Some (v, r) ->
  wt S_node s v = true /\ bs = enc S_node_w s v ++ r /\
  dec S_node fuel s (enc S_node_w s v) = Some (v, []).
Proof.
  intros fuel bs v r H.
  destruct (accepted_is_canonical S_node fuel s bs v r H) as [Hwt [Hbs Hn]].
  rewrite (enc_agree S_node S_node_w 10 nodes_agree s v Hwt k s Hs). eauto using reencode.
Qed.
End Containers.

Definition program_roundtrip := ast_roundtrip S_program 30 agree_program.
Definition module_roundtrip := ast_roundtrip S_module 30 agree_module.
Definition lib_head_roundtrip := ast_roundtrip S_lib_head 30 agree_lib_head.
Definition program_reencode := ast_reencode S_program 30 agree_program.
Definition module_reencode := ast_reencode S_module 30 agree_module.
Definition lib_head_reencode := ast_reencode S_lib_head 30 agree_lib_head.

(* source locations are written as a bare run of (line, column) pairs; the reader takes as many
   as the AST it already holds has places for *)
Definition locs_value (l : list (Z * Z)) : value := VList (map (fun p => VPair (VN (fst p)) (VN (snd p))) l).
Definition loc_ok (p : Z * Z) : bool := int_ok SU32 (fst p) && int_ok SU32 (snd p).

Theorem locations_roundtrip : forall (count : nat) l r,
  length l = count -> forallb loc_ok l = true ->
  dec SUnit 3 (SArr count S_loc) (enc SUnit (SArr count S_loc) (locs_value l) ++ r) = Some (locs_value l, r).
Proof.
  intros count l r Hl Hok. unfold locs_value. apply roundtrip; cbn [wt need].
  - rewrite map_length, Hl, Nat.eqb_refl. revert Hok. apply forallb_map_impl. intros p Hp. exact Hp.
  - rewrite map_map. apply le_n_S, list_max_map_le. intros p. apply le_n.
Qed.

(* non-vacuity: a program with a procedure, an if/else, a repeat and immediates is well typed *)
Example sample_program : value :=
  VTag 0 (VPair (VList [VPair (VList [VN 102; VN 111; VN 111])
                          (VPair (VList []) (VPair (VN 0) (VPair (VN 2)
                             (VList [VRec (VTag 198 (VN 1)); VRec (VTag 182 (VList [VN 1; VN 2; VN 3]))]))))])
               (VList [VRec (VTag 216 (VN 0));
                       VRec (VTag 253 (VPair (VList [VRec (VTag 8 VUnit)])
                                             (VList [VRec (VTag 12 VUnit); VRec (VTag 226 (VTag 1 (VN 3)))])));
                       VRec (VTag 254 (VPair (VN 3) (VList [VRec (VTag 122 VUnit)])))])).

Example sample_program_wt : wt S_node S_program sample_program = true /\ (need S_node S_program sample_program <= 12)%nat.
Proof. vm_compute. split; [reflexivity | lia]. Qed.
