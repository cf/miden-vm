(* Execution contexts: what a call/syscall/dyncall leaves behind (the caller's frame), what the
   callee can see, and kernel membership. *)
From Coq Require Import ZArith List.
From MV Require Import Core.Op Core.Rpo Core.Mast Gen.ConstGen Vm.State Vm.Step Vm.StepProps Vm.Exec Vm.ExecInd.
Import ListNotations.
Open Scope Z_scope.

Definition frame_eq (s s' : state) : Prop :=
  saved s' = saved s /\ ctx s' = ctx s /\ fn_hash s' = fn_hash s.

Lemma frame_eq_refl s : frame_eq s s. Proof. repeat split. Qed.
Lemma frame_eq_trans a b c : frame_eq a b -> frame_eq b c -> frame_eq a c.
Proof. intros [A1 [A2 A3]] [B1 [B2 B3]]. repeat split; congruence. Qed.

Lemma cstep_frame m lab o s s' : cstep m lab o s = Ok s' -> frame_eq s s'.
Proof.
  intros H. apply cstep_inv in H as (s1 & H1 & _ & ->).
  repeat split; cbn; revert H1; eapply exec_op_keeps; reflexivity.
Qed.

Lemma csteps_frame m ops : forall s s', csteps m ops s = Ok s' -> frame_eq s s'.
Proof.
  induction ops as [|[lab o] ops IH]; intros s s' H; cbn [csteps] in H.
  - apply Ok_inj in H; subst. apply frame_eq_refl.
  - apply bind_ok in H as (s1 & H1 & H2). eauto using frame_eq_trans, cstep_frame.
Qed.

(* what a completed call leaves behind *)
Definition call_frame (s s' : state) : Prop :=
  frame_eq s s' /\ fmp s' = fmp s /\ oaddr s' = oaddr s /\
  skipn 16 (stk s') = skipn 16 (stk s).

Lemma skipn_app_exact {A} (a b : list A) n : length a = n -> skipn n (a ++ b) = b.
Proof. intros <-. rewrite skipn_app, skipn_all, Nat.sub_diag. reflexivity. Qed.

(* depth is at least 16 in every reachable state *)
Definition deep (s : state) : Prop := (16 <= length (stk s))%nat.

Section Frames.
Variable m : Z.
Variable T : list (word * block).
Variable K : list word.
Local Notation EB := (exec_block m T K).
Local Notation EC := (exec_call m T K).
Local Notation ED := (exec_dyn m T K).

Definition restored (s s' : state) : Prop :=
  saved s' = saved s /\ ctx s' = ctx s /\ fn_hash s' = fn_hash s /\ in_syscall s' = false /\
  fmp s' = fmp s /\
  exists s2, (length (stk s2) <= 16)%nat /\ stk s' = stk s2 ++ skipn 16 (stk s) /\ oaddr s' = oaddr s.

Lemma restored_frame s s' : restored s s' -> frame_eq s s'.
Proof. intros (A & B & C & _). repeat split; assumption. Qed.

(* the callee kept the frame it was given, so the caller's hidden overflow is still on top of
   [saved]; the END row is a NOOP on the restored state *)
Lemma ctx_restored lab o h sys s s1 s2 s' :
  cstep m lab o (start_call_ctx s h sys) = Ok s1 -> frame_eq s1 s2 -> (depth s2 <= 16)%nat ->
  cstep m End Noop (restore_ctx s s2) = Ok s' -> restored s s'.
Proof.
  intros H1 F2 Hd H. pose proof (frame_eq_trans _ _ _ (cstep_frame _ _ _ _ _ H1) F2) as [S1 _].
  unfold restore_ctx in H. rewrite S1 in H.
  apply cstep_inv in H as (s3 & H3 & _ & ->). apply Ok_inj in H3; subst s3.
  unfold new_oaddr. cbn. rewrite Nat.compare_refl. repeat split. exists s2. auto.
Qed.

Lemma runs_frame w s s' : runs m T K w s s' -> frame_eq s s'.
Proof.
  (* by transitivity along the rows and parts of each rule *)
  induction 1; eauto 6 using csteps_frame, restored_frame, ctx_restored, frame_eq_trans, cstep_frame.
Qed.

(* C07: after a completed call / dyncall / syscall the caller's context id, procedure hash, free
   memory pointer, hidden overflow of outer callers, its own overflow addresses and every stack
   element below the top 16 are exactly as before; the callee returned at most 16 elements. *)
Theorem call_frame_restored fuel h sys s s' :
  EC fuel h sys s = Ok s' -> restored s s'.
Proof. intros H. apply exec_runs in H. inversion H; subst. eauto using ctx_restored, runs_frame. Qed.

(* a callee that ends with more than 16 elements makes the call fail *)
Theorem call_depth_on_return f h (sys : bool) s s1 s2 :
  cstep m (if sys then SysCall else Call) Noop (start_call_ctx s h sys) = Ok s1 ->
  (if word_eqb h DYN_HASH then ED f s1
   else match table_get T h with Some body => EB f body s1 | None => Err CodeBlockNotFound s1 end) = Ok s2 ->
  (16 < depth s2)%nat ->
  EC (S f) h sys s = Err (DepthOnReturn (Z.of_nat (depth s2))) s2.
Proof.
  (* simpl, unlike cbn, folds the callee back into EB / ED *)
  intros H1 H2 Hd. apply Nat.ltb_lt in Hd. simpl. unfold cst. rewrite H1. cbn [bind]. rewrite H2. cbn [bind].
  rewrite Hd. reflexivity.
Qed.

End Frames.

(* what the callee starts with: only the top 16 elements, an empty overflow, a fresh context
   id (clk + 1) and fmp = 2^30 for call; context 0 and fmp = 2^31 for syscall *)
Theorem callee_view s h :
  stk (start_call_ctx s h false) = firstn 16 (stk s) /\ oaddr (start_call_ctx s h false) = [] /\
  ctx (start_call_ctx s h false) = clk s + 1 /\ fmp (start_call_ctx s h false) = FMP_MIN /\
  fn_hash (start_call_ctx s h false) = h /\
  ctx (start_call_ctx s h true) = 0 /\ fmp (start_call_ctx s h true) = SYSCALL_FMP_MIN /\
  in_syscall (start_call_ctx s h true) = true /\ fn_hash (start_call_ctx s h true) = fn_hash s /\
  mem (start_call_ctx s h true) = mem s.
Proof. repeat split. Qed.

(* syscall reaches only kernel procedures: otherwise nothing runs *)
Theorem syscall_not_in_kernel m T K f h s :
  kernel_has K h = false -> exec_block m T K (S f) (BSysCall h) s = Err NotInKernel s.
Proof. intros H. cbn [exec_block]. rewrite H. reflexivity. Qed.

(* caller yields the hash of the calling procedure inside a syscall and fails outside *)
Theorem caller_semantics s :
  (in_syscall s = false -> exec_op Caller s = Err CallerNotInSyscall s) /\
  (in_syscall s = true ->
     exists s', exec_op Caller s = Ok s' /\
                firstn 4 (stk s') = [nthw (fn_hash s) 3; nthw (fn_hash s) 2; nthw (fn_hash s) 1; nthw (fn_hash s) 0]).
Proof.
  split; intros H; cbn [exec_op]; rewrite H; [reflexivity|].
  eexists. split; reflexivity.
Qed.
