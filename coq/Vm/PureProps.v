(* The zero-extended view of the stack: [pure_op] (with the 16-element floor) simulates
   [vpure_op] (plain list surgery), and the depth never drops below 16. *)
From Coq Require Import ZArith List Lia.
From MV Require Import Core.Op Core.Rpo Vm.Pure.
Import ListNotations.
Open Scope Z_scope.

Definition stack_eq (a b : list Z) : Prop := forall i, nth i a 0 = nth i b 0.

Lemma stack_eq_refl a : stack_eq a a. Proof. intros i; reflexivity. Qed.
Lemma stack_eq_sym a b : stack_eq a b -> stack_eq b a. Proof. intros H i; symmetry; apply H. Qed.
Lemma stack_eq_trans a b c : stack_eq a b -> stack_eq b c -> stack_eq a c.
Proof. intros H1 H2 i; rewrite H1; apply H2. Qed.

Lemma stack_eq_cons a b l1 l2 : a = b -> stack_eq l1 l2 -> stack_eq (a :: l1) (b :: l2).
Proof. intros -> H i. destruct i; [reflexivity | apply H]. Qed.

Lemma nth_app_zero (x : list Z) i : nth i (x ++ [0]) 0 = nth i x 0.
Proof.
  destruct (Nat.lt_ge_cases i (length x)) as [Hl|Hl].
  - apply app_nth1; exact Hl.
  - rewrite app_nth2 by exact Hl. rewrite (nth_overflow x) by exact Hl.
    destruct (i - length x)%nat as [|[|n]]; reflexivity.
Qed.

Lemma nth_skipn_z k (l : list Z) i : nth i (skipn k l) 0 = nth (k + i) l 0.
Proof.
  revert l; induction k as [|k IH]; intros l; [reflexivity|].
  destruct l as [|x l]; [destruct i; reflexivity|]. apply IH.
Qed.

Lemma stack_eq_vreplace k new l lv :
  stack_eq l lv -> stack_eq (vreplace k new l) (vreplace k new lv).
Proof.
  intros H i. unfold vreplace.
  destruct (Nat.lt_ge_cases i (length new)) as [Hl|Hl].
  - rewrite !app_nth1 by exact Hl. reflexivity.
  - rewrite !app_nth2 by exact Hl. rewrite !nth_skipn_z. apply H.
Qed.

Lemma stack_eq_replace k new l lv :
  stack_eq l lv -> stack_eq (replace_l k new l) (vreplace k new lv).
Proof.
  intros H. apply stack_eq_trans with (vreplace k new l); [|apply stack_eq_vreplace; exact H].
  intros i. unfold replace_l, vreplace.
  destruct (Nat.compare (length new) k); try reflexivity.
  destruct (Nat.eqb (length l) 16); [apply nth_app_zero | reflexivity].
Qed.

Lemma gls_ext l lv a n : stack_eq l lv -> gls l a n = gls lv a n.
Proof. intros H. apply map_ext, H. Qed.

Definition sim_res (r rv : pres) : Prop :=
  match r, rv with
  | POk a, POk b => stack_eq a b
  | PErr e1, PErr e2 => e1 = e2
  | _, _ => False
  end.

Ltac sim_branches :=
  repeat match goal with
         | |- sim_res (if ?c then _ else _) (if ?c then _ else _) => destruct c
         | |- sim_res (POk _) (POk _) => cbn [sim_res]; apply stack_eq_replace; assumption
         | |- sim_res (PErr _) (PErr _) => reflexivity
         end.

Lemma pure_op_sim o l lv :
  o <> SDepth -> stack_eq l lv -> sim_res (pure_op o l) (vpure_op o lv).
Proof.
  intros Hsd H. pose proof (H : forall i, gl l i = gl lv i) as G.
  destruct o; try congruence;
    cbv beta iota zeta delta [pure_op vpure_op pure_op_gen];
    rewrite ?G, ?(gls_ext l lv _ _ H);
    sim_branches; cbn [sim_res]; exact H.
Qed.

Lemma pure_ops_sim ops : forall l lv,
  ~ In SDepth ops -> stack_eq l lv -> sim_res (pure_ops ops l) (vpure_ops ops lv).
Proof.
  induction ops as [|o ops IH]; intros l lv Hn H; cbn [pure_ops vpure_ops pure_ops_gen].
  - exact H.
  - assert (Ho : o <> SDepth) by (intros ->; apply Hn; left; reflexivity).
    pose proof (pure_op_sim o l lv Ho H) as S1. unfold pure_op, vpure_op in S1.
    destruct (pure_op_gen replace_l o l) as [a|e1], (pure_op_gen vreplace o lv) as [b|e2];
      cbn [sim_res] in S1; try contradiction.
    + apply IH; [intros Hi; apply Hn; right; exact Hi | exact S1].
    + subst; reflexivity.
Qed.

Lemma gls_length l a n : length (gls l a n) = n.
Proof. unfold gls. rewrite map_length, seq_length. reflexivity. Qed.

Lemma pure_op_depth o l l' :
  (16 <= length l)%nat -> pure_op o l = POk l' -> (16 <= length l')%nat.
Proof.
  intros Hl. destruct o; cbv beta iota zeta delta [pure_op pure_op_gen]; intros H;
    repeat match type of H with
           | (if ?c then _ else _) = _ => destruct c
           end;
    try discriminate H;
    apply POk_inj in H; subst l'; try exact Hl;
    apply replace_l_len;
    rewrite ?app_length, ?gls_length; cbn [length]; rewrite ?rev_length, ?rpo_permute_length, ?gls_length; try lia.
Qed.

Lemma pure_ops_depth ops : forall l l',
  (16 <= length l)%nat -> pure_ops ops l = POk l' -> (16 <= length l')%nat.
Proof.
  induction ops as [|o ops IH]; intros l l' Hl; cbn [pure_ops pure_ops_gen]; intros H.
  - apply POk_inj in H; subst l'. exact Hl.
  - fold (pure_op o l) in H. destruct (pure_op o l) as [a|e] eqn:E; [|discriminate].
    apply (IH a l'); [eapply pure_op_depth; eauto | exact H].
Qed.

Lemma pure_ops_gen_app R a b l :
  pure_ops_gen R (a ++ b) l =
  match pure_ops_gen R a l with POk l' => pure_ops_gen R b l' | PErr e => PErr e end.
Proof.
  revert l; induction a as [|o a IH]; intros l; cbn [pure_ops_gen app]; [reflexivity|].
  destruct (pure_op_gen R o l); [apply IH | reflexivity].
Qed.

Lemma push_all xs : forall l, pure_ops (map Push xs) l = POk (rev xs ++ l).
Proof.
  induction xs as [|x xs IH]; intros l; cbn [map pure_ops pure_ops_gen]; [reflexivity|].
  change (pure_ops (map Push xs) (x :: l) = POk (rev (x :: xs) ++ l)).
  rewrite IH. cbn [rev]. rewrite <- app_assoc. reflexivity.
Qed.

Lemma drop_all ys : forall l, (16 <= length l)%nat ->
  pure_ops (repeat Drop (length ys)) (ys ++ l) = POk l.
Proof.
  induction ys as [|y ys IH]; intros l Hl; cbn [length repeat app pure_ops pure_ops_gen]; [reflexivity|].
  assert (E : pure_op_gen replace_l Drop (y :: ys ++ l) = POk (ys ++ l)).
  { cbv beta iota zeta delta [pure_op_gen replace_l]. cbn [length app skipn Nat.compare].
    destruct (Nat.eqb (S (length (ys ++ l))) 16) eqn:E; [|reflexivity].
    apply Nat.eqb_eq in E. rewrite app_length in E. lia. }
  rewrite E. apply IH. exact Hl.
Qed.

(* elements pushed beyond position 15 come back in LIFO order, whatever their number *)
Theorem push_then_drop xs l :
  (16 <= length l)%nat ->
  pure_ops (map Push xs ++ repeat Drop (length xs)) l = POk l.
Proof.
  intros Hl. unfold pure_ops. rewrite pure_ops_gen_app, push_all, <- (rev_length xs).
  apply drop_all. exact Hl.
Qed.
