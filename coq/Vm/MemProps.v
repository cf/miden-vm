(* Memory is zero-initialised word RAM keyed by (context, address); contexts are isolated. *)
From Coq Require Import ZArith List Bool.
From MV Require Import Base.Field Core.Op Core.Rpo Vm.State Vm.Pure Vm.Step Vm.StepProps.
Import ListNotations.
Open Scope Z_scope.

Lemma key_eqb_refl k : key_eqb k k = true.
Proof. unfold key_eqb. rewrite !Z.eqb_refl. reflexivity. Qed.

Lemma key_eqb_neq c a c' a' : (c, a) <> (c', a') -> key_eqb (c, a) (c', a') = false.
Proof.
  intros H. unfold key_eqb. cbn. destruct (c =? c') eqn:E1; [|reflexivity].
  destruct (a =? a') eqn:E2; [|reflexivity].
  apply Z.eqb_eq in E1, E2. congruence.
Qed.

Lemma read_fresh inputs advice c a : mem_read (init_state inputs advice) c a = ZERO_WORD.
Proof. reflexivity. Qed.

Lemma read_after_write s c a w : mem_read (mem_write s c a w) c a = w.
Proof. unfold mem_read, mem_write. cbn. rewrite key_eqb_refl. reflexivity. Qed.

Lemma write_other s c a w c' a' :
  (c, a) <> (c', a') -> mem_read (mem_write s c a w) c' a' = mem_read s c' a'.
Proof. intros H. unfold mem_read, mem_write. cbn. rewrite key_eqb_neq by exact H. reflexivity. Qed.

Lemma mem_read_replace_top k new s c a : mem_read (replace_top k new s) c a = mem_read s c a.
Proof. apply (replace_top_keeps _ (fun s => mem_read s c a)). reflexivity. Qed.
Lemma mem_read_set_adv s x c a : mem_read (set_adv s x) c a = mem_read s c a.
Proof. reflexivity. Qed.
(* an operation only ever writes to the memory of the current context *)
Theorem exec_op_other_ctx o s s' c a :
  exec_op o s = Ok s' -> c <> ctx s -> mem_read s' c a = mem_read s c a.
Proof.
  intros H Hc. revert H. apply (exec_op_keeps _ (fun s => mem_read s c a) (ctx s)); try reflexivity.
  intros s0 a0 w. apply write_other. congruence.
Qed.

(* a word that was stored is read back, and every other cell reads as before, whatever the
   operation then does to the stack *)
Lemma stored k new s c a w :
  let s' := replace_top k new (mem_write s c a w) in
  mem_read s' c a = w /\
  forall c' a', (c, a) <> (c', a') -> mem_read s' c' a' = mem_read s c' a'.
Proof.
  split; [|intros c' a' Hne]; rewrite mem_read_replace_top; [apply read_after_write | apply write_other, Hne].
Qed.

(* element store: only element 0 of the addressed word changes *)
Theorem mstore_element s s' :
  exec_op MStore s = Ok s' ->
  let a := get s 0 in
  let old := mem_read s (ctx s) a in
  mem_read s' (ctx s) a = [get s 1; nthw old 1; nthw old 2; nthw old 3] /\
  forall c' a', (ctx s, a) <> (c', a') -> mem_read s' c' a' = mem_read s c' a'.
Proof.
  cbn [exec_op]. destruct (negb (u32max_ok (get s 0))); [discriminate|].
  intros H. apply Ok_inj in H; subst s'. apply stored.
Qed.

Theorem mstorew_then_read s s' :
  exec_op MStoreW s = Ok s' ->
  mem_read s' (ctx s) (get s 0) = [get s 4; get s 3; get s 2; get s 1] /\
  forall c' a', (ctx s, get s 0) <> (c', a') -> mem_read s' c' a' = mem_read s c' a'.
Proof.
  cbn [exec_op]. destruct (negb (u32max_ok (get s 0))); [discriminate|].
  intros H. apply Ok_inj in H; subst s'. apply stored.
Qed.

(* addresses of 2^32 or more fail, and nothing changes *)
Theorem addr_bound_single o s :
  In o [MLoad; MLoadW; MStore; MStoreW] -> U32MAX < get s 0 ->
  exec_op o s = Err (MemAddr (get s 0)) s.
Proof.
  intros Hin Hlt.
  assert (E : negb (u32max_ok (get s 0)) = true).
  { apply negb_true_iff. apply Z.leb_gt. exact Hlt. }
  destruct Hin as [<-|[<-|[<-|[<-|[]]]]]; cbn [exec_op]; rewrite E; reflexivity.
Qed.

Theorem addr_bound_double o s :
  In o [MStream; Pipe] -> U32MAX < get s 12 + 1 ->
  exists a, exec_op o s = Err (MemAddr a) s /\ U32MAX < a.
Proof.
  intros Hin Hlt.
  destruct (negb (u32max_ok (get s 12))) eqn:E1.
  - exists (get s 12). split.
    + destruct Hin as [<-|[<-|[]]]; cbn [exec_op]; rewrite E1; reflexivity.
    + apply negb_true_iff in E1. apply Z.leb_gt in E1. exact E1.
  - assert (E2 : negb (u32max_ok (get s 12 + 1)) = true).
    { apply negb_true_iff. apply Z.leb_gt. exact Hlt. }
    exists (get s 12 + 1). split; [|exact Hlt].
    destruct Hin as [<-|[<-|[]]]; cbn [exec_op]; rewrite E1, E2; reflexivity.
Qed.
