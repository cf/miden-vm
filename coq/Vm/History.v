(* Growable trace columns (processor/src/system/mod.rs and stack/trace.rs:
   ensure_trace_capacity): a column is a vector that is doubled when clk + 1 reaches its length,
   and row clk + 1 is written during cycle clk.  What is recorded does not depend on the initial
   capacity (the expected-cycles hint), and no write is ever out of bounds. *)
From Coq Require Import List Arith Lia.
Import ListNotations.

Fixpoint set_nth (n : nat) (x : nat) (l : list nat) : list nat :=
  match l, n with
  | [], _ => []
  | _ :: t, O => x :: t
  | h :: t, S n' => h :: set_nth n' x t
  end.

Definition ensure (clk : nat) (col : list nat) : list nat :=
  if Nat.leb (length col) (clk + 1) then col ++ repeat 0 (length col) else col.

(* one cycle: make room, then write the value of row clk + 1 *)
Definition cycle (col : list nat) (clk : nat) (v : nat) : list nat :=
  set_nth (clk + 1) v (ensure clk col).

(* run cycles 0 .. n-1 writing vs[0..n-1] into rows 1..n *)
Fixpoint run (col : list nat) (clk : nat) (vs : list nat) : list nat :=
  match vs with
  | [] => col
  | v :: rest => run (cycle col clk v) (clk + 1) rest
  end.

Lemma set_nth_length n x l : length (set_nth n x l) = length l.
Proof. revert n; induction l as [|h t IH]; intros [|n]; cbn; auto. Qed.

Lemma nth_set_nth_same n x l : n < length l -> nth n (set_nth n x l) 0 = x.
Proof. revert n; induction l as [|h t IH]; intros [|n] H; cbn in *; try lia; auto. apply IH; lia. Qed.

Lemma nth_set_nth_other n m x l : n <> m -> nth m (set_nth n x l) 0 = nth m l 0.
Proof.
  revert n m; induction l as [|h t IH]; intros [|n] [|m] H; cbn; auto; try congruence.
Qed.

Lemma ensure_length clk col : 1 <= length col -> clk < length col -> clk + 1 < length (ensure clk col).
Proof.
  intros H1 H2. unfold ensure.
  destruct (Nat.leb_spec (length col) (clk + 1)); [rewrite app_length, repeat_length|]; lia.
Qed.

Lemma ensure_keeps clk col i : i < length col -> nth i (ensure clk col) 0 = nth i col 0.
Proof.
  intros H. unfold ensure. destruct (Nat.leb (length col) (clk + 1)); [|reflexivity].
  apply app_nth1. exact H.
Qed.

Lemma ensure_length_ge clk col : length col <= length (ensure clk col).
Proof. unfold ensure. destruct (Nat.leb _ _); [rewrite app_length|]; lia. Qed.

(* invariant: clk < length col, i.e. the next write (row clk + 1) is in bounds after ensure *)
Lemma cycle_inv col clk v :
  1 <= length col -> clk < length col ->
  clk + 1 < length (cycle col clk v) /\
  nth (clk + 1) (cycle col clk v) 0 = v /\
  forall i, i <= clk -> nth i (cycle col clk v) 0 = nth i col 0.
Proof.
  intros H1 H2. unfold cycle. pose proof (ensure_length clk col H1 H2) as HL.
  rewrite set_nth_length. split; [exact HL|]. split.
  - apply nth_set_nth_same. exact HL.
  - intros i Hi. rewrite nth_set_nth_other by lia. apply ensure_keeps. lia.
Qed.

(* rows written by a run are exactly the values, whatever the initial capacity *)
Theorem run_rows : forall vs col clk,
  1 <= length col -> clk < length col ->
  (forall k, k < length vs -> nth (clk + 1 + k) (run col clk vs) 0 = nth k vs 0) /\
  (forall i, i <= clk -> nth i (run col clk vs) 0 = nth i col 0).
Proof.
  induction vs as [|v vs IH]; intros col clk H1 H2; cbn [run length].
  - split; [intros k Hk; lia | intros i _; reflexivity].
  - destruct (cycle_inv col clk v H1 H2) as [HL [Hv Hk]].
    assert (H1' : 1 <= length (cycle col clk v)) by lia.
    destruct (IH (cycle col clk v) (clk + 1) H1' HL) as [IH1 IH2].
    split.
    + intros [|k] Hlt.
      * rewrite Nat.add_0_r. rewrite IH2 by lia. exact Hv.
      * replace (clk + 1 + S k) with (clk + 1 + 1 + k) by lia. apply IH1. lia.
    + intros i Hi. rewrite IH2 by lia. apply Hk. exact Hi.
Qed.

(* two runs from zero-filled columns of different capacities record the same rows *)
Corollary hint_independent vs c1 c2 k :
  1 <= c1 -> 1 <= c2 -> k < length vs ->
  nth (1 + k) (run (repeat 0 c1) 0 vs) 0 = nth (1 + k) (run (repeat 0 c2) 0 vs) 0.
Proof.
  intros H1 H2 Hk.
  assert (R : forall c, 1 <= c -> nth (0 + 1 + k) (run (repeat 0 c) 0 vs) 0 = nth k vs 0)
    by (intros c Hc; apply run_rows; rewrite ?repeat_length; lia).
  rewrite !R by assumption. reflexivity.
Qed.
