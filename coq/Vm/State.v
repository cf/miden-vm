(* VM state as the processor keeps it, reduced to what later rows depend on. *)
From Coq Require Import ZArith List.
From MV Require Import Base.Field Core.Op Core.Rpo Gen.ConstGen.
Import ListNotations.
Open Scope Z_scope.

Inductive err : Type :=
| DivideByZero (clk : Z)
| NotBinary (v : Z)
| NotU32 (v code : Z)
| AssertFailed (code clk : Z)
| AdviceExhausted (clk : Z)
| MemAddr (a : Z)
| FmpRange (old new : Z)
| CycleLimit (m : Z)
| DepthOnReturn (d : Z)
| NotInKernel
| CallerNotInSyscall
| CodeBlockNotFound
| DynNotFound
| MerkleVerify
| HostError          (* advice map / Merkle store lookups that fail on the host side *)
| OutOfFuel
| Unsupported.

Record state := mkState {
  stk : list Z;                         (* active stack, top first; length = depth >= 16 *)
  oaddr : list Z;                       (* clk addresses of the active overflow rows, top first *)
  saved : list (list Z * list Z);       (* hidden overflow (values, addresses) of calling contexts *)
  clk : Z;
  ctx : Z;
  fmp : Z;
  in_syscall : bool;
  fn_hash : word;
  mem : list ((Z * Z) * word);          (* (ctx, addr) -> word, newest binding first *)
  adv : list Z;                         (* advice stack, top first *)
  olog : list op                        (* operation recorded in each trace row, newest first *)
}.

Inductive result (A : Type) : Type :=
| Ok (a : A)
| Err (e : err) (s : state).
Arguments Ok {A} a.
Arguments Err {A} e s.

Lemma Ok_inj {A} (a b : A) : Ok a = Ok b -> a = b.
Proof. now intros [=]. Qed.

Definition bind {A B} (r : result A) (f : A -> result B) : result B :=
  match r with Ok a => f a | Err e s => Err e s end.

Definition MIN_DEPTH : nat := 16.

Fixpoint pad_to (n : nat) (l : list Z) : list Z :=
  match n with
  | O => l
  | S n' => match l with [] => 0 :: pad_to n' [] | x :: t => x :: pad_to n' t end
  end.

(* initial state for stack inputs given top first *)
Definition init_state (inputs : list Z) (advice : list Z) : state :=
  let n := length inputs in
  let over := (n - 16)%nat in
  mkState (pad_to 16 inputs)
          (map (fun i => P - 1 - Z.of_nat i) (seq 0 over))
          [] 0 0 FMP_MIN false ZERO_WORD [] advice [].

Definition log_op (o : op) (s : state) : state :=
  mkState (stk s) (oaddr s) (saved s) (clk s) (ctx s) (fmp s) (in_syscall s) (fn_hash s) (mem s) (adv s)
          (o :: olog s).
Definition depth (s : state) : nat := length (stk s).
Definition get (s : state) (i : nat) : Z := nth i (stk s) 0.

Definition set_stack (s : state) (st : list Z) (oa : list Z) : state :=
  mkState st oa (saved s) (clk s) (ctx s) (fmp s) (in_syscall s) (fn_hash s) (mem s) (adv s) (olog s).
Definition set_fmp (s : state) (f : Z) : state :=
  mkState (stk s) (oaddr s) (saved s) (clk s) (ctx s) f (in_syscall s) (fn_hash s) (mem s) (adv s) (olog s).
Definition set_mem (s : state) (m : list ((Z * Z) * word)) : state :=
  mkState (stk s) (oaddr s) (saved s) (clk s) (ctx s) (fmp s) (in_syscall s) (fn_hash s) m (adv s) (olog s).
Definition set_adv (s : state) (a : list Z) : state :=
  mkState (stk s) (oaddr s) (saved s) (clk s) (ctx s) (fmp s) (in_syscall s) (fn_hash s) (mem s) a (olog s).
Definition set_clk (s : state) (c : Z) : state :=
  mkState (stk s) (oaddr s) (saved s) c (ctx s) (fmp s) (in_syscall s) (fn_hash s) (mem s) (adv s) (olog s).

(* Replace the top k elements by `new`.  |new| - k is -1, 0 or +1 for every operation:
   -1 is a left shift (a ZERO enters at the bottom when the depth is 16, otherwise the top
      overflow row is removed), +1 a right shift (position 15 goes to the overflow table under
      the current clock). *)
Definition replace_top (k : nat) (new : list Z) (s : state) : state :=
  let st1 := new ++ skipn k (stk s) in
  match Nat.compare (length new) k with
  | Eq => set_stack s st1 (oaddr s)
  | Lt => if Nat.eqb (depth s) MIN_DEPTH then set_stack s (st1 ++ [0]) (oaddr s)
          else set_stack s st1 (tl (oaddr s))
  | Gt => set_stack s st1 (clk s :: oaddr s)
  end.

(* memory *)
Definition key_eqb (a b : Z * Z) : bool := Z.eqb (fst a) (fst b) && Z.eqb (snd a) (snd b).
Fixpoint mem_find (m : list ((Z * Z) * word)) (k : Z * Z) : option word :=
  match m with
  | [] => None
  | (k', w) :: rest => if key_eqb k' k then Some w else mem_find rest k
  end.
Definition mem_read (s : state) (c a : Z) : word :=
  match mem_find (mem s) (c, a) with Some w => w | None => ZERO_WORD end.
Definition mem_write (s : state) (c a : Z) (w : word) : state :=
  set_mem s (((c, a), w) :: mem s).
