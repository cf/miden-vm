(* The decoded operation stream: a batch is executed as its operations plus NOOPs only, and block
   starts / ends recorded in the trace are properly nested. *)
From Coq Require Import ZArith List.
From MV Require Import Core.Op Core.Batch Vm.State Vm.Step Vm.StepProps Vm.Exec Vm.ExecInd.
Import ListNotations.
Open Scope Z_scope.

Lemma finalize_ops a : a_ops (finalize_group a) = a_ops a. Proof. reflexivity. Qed.

Fixpoint erase (l : list op) : list op :=
  match l with
  | [] => []
  | Noop :: r => erase r
  | o :: r => o :: erase r
  end.

Lemma erase_cons o r : erase (o :: r) = erase [o] ++ erase r.
Proof. destruct o; reflexivity. Qed.

Lemma erase_app a b : erase (a ++ b) = erase a ++ erase b.
Proof.
  induction a as [|o a IH]; [reflexivity|]. cbn [app].
  rewrite erase_cons, IH, (erase_cons o a), app_assoc. reflexivity.
Qed.

Lemma erase_repeat_noop n : erase (repeat Noop n) = [].
Proof. induction n; [reflexivity | exact IHn]. Qed.

Lemma batch_stream_loop_erase counts : forall ops st acc,
  erase (fst (batch_stream_loop counts ops st acc)) = erase acc ++ erase ops.
Proof.
  induction ops as [|o ops IH]; intros st acc; cbn [batch_stream_loop fst].
  - rewrite app_nil_r. reflexivity.
  - rewrite (erase_cons o ops), app_assoc, <- erase_app.
    destruct (Nat.eqb (S (bs_opidx st)) (nth (bs_gidx st) counts 0%nat)); [destruct (has_imm o)|];
      rewrite IH, ?erase_app, ?app_nil_r; reflexivity.
Qed.

Theorem batch_stream_only_adds_noops b : erase (batch_stream b) = erase (b_ops b).
Proof.
  unfold batch_stream.
  pose proof (batch_stream_loop_erase (b_counts b) (b_ops b) (mkBst 0 0 1) []) as H.
  destruct (batch_stream_loop (b_counts b) (b_ops b) (mkBst 0 0 1) []) as [acc st].
  rewrite erase_app, erase_repeat_noop, app_nil_r. exact H.
Qed.

(* the user operations recorded for a span are the span's operations, up to NOOPs *)
Definition user_labels (l : list (op * op)) : list op :=
  map fst (filter (fun p => negb (is_control (fst p))) l).

Lemma user_labels_app a b : user_labels (a ++ b) = user_labels a ++ user_labels b.
Proof. unfold user_labels. rewrite filter_app, map_app. reflexivity. Qed.

Lemma user_labels_user l : (forall o, In o l -> is_control o = false) ->
  user_labels (map user l) = l.
Proof.
  induction l as [|o l IH]; intros H; [reflexivity|].
  unfold user_labels in *. cbn [map filter user fst].
  rewrite (H o) by (left; reflexivity). cbn [negb map fst]. f_equal.
  apply IH. intros x Hx. apply H. right. exact Hx.
Qed.

Definition opens (o : op) : bool :=
  match o with Join | Split | Loop | Call | SysCall | Dyn | Span => true | _ => false end.
Definition closes (o : op) : bool := match o with End => true | _ => false end.

(* nesting depth after reading a label sequence; None if an END has no matching start *)
Fixpoint nest (d : nat) (l : list op) : option nat :=
  match l with
  | [] => Some d
  | o :: r => if opens o then nest (S d) r
              else if closes o then match d with O => None | S d' => nest d' r end
              else nest d r
  end.

Definition balanced (l : list op) : Prop := forall d, nest d l = Some d.

Lemma nest_app a : forall b d, nest d (a ++ b) = match nest d a with Some d' => nest d' b | None => None end.
Proof.
  induction a as [|o a IH]; intros b d; cbn [app nest]; [reflexivity|].
  destruct (opens o); [apply IH|]. destruct (closes o); [destruct d; [reflexivity | apply IH] | apply IH].
Qed.

Lemma balanced_wrap o l : opens o = true -> balanced l -> balanced (o :: l ++ [End]).
Proof.
  intros Ho Hl d. cbn [nest]. rewrite Ho, nest_app, Hl. reflexivity.
Qed.

Definition neutral (o : op) : Prop := opens o = false /\ closes o = false.

Lemma balanced_neutrals l : Forall neutral l -> balanced l.
Proof.
  induction 1 as [|o l [Ho Hc] _ IH]; intros d; cbn [nest]; [reflexivity|].
  rewrite Ho, Hc. apply IH.
Qed.

Lemma not_control_neutral o : is_control o = false -> neutral o.
Proof. intros H. destruct o; try (split; reflexivity); discriminate H. Qed.

Lemma balanced_users l : (forall o, In o l -> is_control o = false) -> balanced l.
Proof. intros H. apply balanced_neutrals, Forall_forall. auto using not_control_neutral. Qed.

Lemma exec_op_ok_not_control o s s' : exec_op o s = Ok s' -> is_control o = false.
Proof. intros H. destruct o; try reflexivity; cbn [exec_op] in H; discriminate H. Qed.

Lemma csteps_ops_ok m l : forall s s', csteps m l s = Ok s' ->
  Forall (fun p => is_control (snd p) = false) l.
Proof.
  induction l as [|[lab o] l IH]; intros s s' H; [constructor|].
  apply bind_ok in H as (s1 & H1 & H2).
  apply cstep_inv in H1 as (s0 & H0 & _). eauto using exec_op_ok_not_control.
Qed.

Lemma csteps_user_ok m l : forall s s', csteps m (map user l) s = Ok s' ->
  forall o, In o l -> is_control o = false.
Proof.
  intros s s' H o Hin. apply csteps_ops_ok in H. rewrite Forall_forall in H.
  exact (H (user o) (in_map user _ _ Hin)).
Qed.

Definition span_mid (ops : list op) : list (op * op) :=
  match batch_ops ops with
  | [] => []
  | b0 :: bs => map user (batch_stream b0) ++
                flat_map (fun b => (Respan, Noop) :: map user (batch_stream b)) bs
  end.

Lemma span_stream_shape ops :
  span_stream ops = (Span, Noop) :: span_mid ops ++ [(End, Noop)].
Proof.
  unfold span_stream, span_mid. destruct (batch_ops ops); [reflexivity|].
  rewrite <- app_assoc. reflexivity.
Qed.

Lemma span_mid_entries ops :
  Forall (fun p => fst p = snd p \/ fst p = Respan) (span_mid ops).
Proof.
  assert (U : forall l, Forall (fun p => fst p = snd p \/ fst p = Respan) (map user l)).
  { intros l. apply Forall_forall. intros p Hp. apply in_map_iff in Hp as (o & <- & _). auto. }
  unfold span_mid. destruct (batch_ops ops) as [|b0 bs]; [constructor|].
  apply Forall_app. split; [apply U|].
  induction bs as [|b bs IH]; cbn [flat_map]; [constructor|].
  constructor; [auto|]. apply Forall_app. auto.
Qed.

(* a span that ran is SPAN, rows that open and close nothing, END *)
Lemma span_balanced m ops s s' :
  csteps m (span_stream ops) s = Ok s' -> balanced (map fst (span_stream ops)).
Proof.
  intros H. apply csteps_ops_ok in H. rewrite span_stream_shape in *. cbn [map fst]. rewrite map_app.
  apply balanced_wrap; [reflexivity|]. apply balanced_neutrals.
  inversion H as [|x l _ Hl]; subst. apply Forall_app in Hl as [Hmid _].
  pose proof (span_mid_entries ops) as He. rewrite Forall_forall in *.
  intros lab Hin. apply in_map_iff in Hin as (p & <- & Hp).
  destruct (He p Hp) as [-> | ->]; [apply not_control_neutral, Hmid, Hp | split; reflexivity].
Qed.

Lemma cstep_log m lab o s s' : cstep m lab o s = Ok s' -> olog s' = lab :: olog s.
Proof.
  intros H. apply cstep_inv in H as (s1 & H1 & _ & ->).
  cbn. f_equal. revert H1. eapply exec_op_keeps; reflexivity.
Qed.

Lemma csteps_log m ops : forall s s', csteps m ops s = Ok s' -> olog s' = rev (map fst ops) ++ olog s.
Proof.
  induction ops as [|[lab o] ops IH]; intros s s' H; cbn [csteps] in H.
  - apply Ok_inj in H; subst. reflexivity.
  - apply bind_ok in H as (s1 & H1 & H2). rewrite (IH _ _ H2), (cstep_log _ _ _ _ _ H1).
    cbn [map fst rev]. rewrite <- app_assoc. reflexivity.
Qed.

(* [level s d]: read from the first row, the labels logged so far leave d blocks open *)
Definition level (s : state) (d : nat) : Prop := nest 0 (rev (olog s)) = Some d.

Lemma level_rows s s' l d d' :
  olog s' = rev l ++ olog s -> level s d -> nest d l = Some d' -> level s' d'.
Proof.
  unfold level. intros -> L E. rewrite rev_app_distr, rev_involutive, nest_app, L. exact E.
Qed.

Lemma level_open m lab o s s' d :
  cstep m lab o s = Ok s' -> opens lab = true -> level s d -> level s' (S d).
Proof.
  intros H Ho L. apply (level_rows s s' [lab] d _ (cstep_log _ _ _ _ _ H) L). cbn. rewrite Ho. reflexivity.
Qed.

Lemma level_end m o s s' d : cstep m End o s = Ok s' -> level s (S d) -> level s' d.
Proof. intros H L. exact (level_rows s s' [End] _ _ (cstep_log _ _ _ _ _ H) L eq_refl). Qed.

Lemma level_repeat m o s s' d : cstep m Repeat o s = Ok s' -> level s d -> level s' d.
Proof. intros H L. exact (level_rows s s' [Repeat] _ _ (cstep_log _ _ _ _ _ H) L eq_refl). Qed.

Lemma level_span m ops s s' d : csteps m (span_stream ops) s = Ok s' -> level s d -> level s' d.
Proof. intros H L. exact (level_rows _ _ _ _ _ (csteps_log _ _ _ _ H) L (span_balanced _ _ _ _ H d)). Qed.

(* the context switches leave the log alone *)
Lemma level_enter m o h (sys : bool) s s1 d :
  cstep m (if sys then SysCall else Call) o (start_call_ctx s h sys) = Ok s1 -> level s d -> level s1 (S d).
Proof. intros H. apply (level_open _ _ _ _ _ _ H). destruct sys; reflexivity. Qed.

Lemma level_return m o c s2 s' d :
  cstep m End o (restore_ctx c s2) = Ok s' -> level s2 (S d) -> level s' d.
Proof.
  intros H L. apply (level_end _ _ _ _ _ H).
  unfold level, restore_ctx. destruct (saved s2) as [|[v a] r]; exact L.
Qed.

(* a block leaves the level where it found it; a loop after its first iteration (REPEAT-separated
   iterations, then the END that closes the loop) leaves it one lower *)
Lemma runs_nested m T K w s s' : runs m T K w s s' ->
  forall d, level s (match w with WL _ => S d | _ => d end) -> level s' d.
Proof.
  induction 1; intros d L;
    eauto 7 using level_span, level_open, level_end, level_repeat, level_enter, level_return.
Qed.

(* C13: in every successful execution the recorded block starts and ends are properly nested:
   reading the trace's operation column from the first row, every END matches the latest open
   block and the nesting depth is back to 0 at the end. *)
Theorem stream_nested fuel m p inputs advice s' :
  exec_program fuel m p inputs advice = Ok s' -> nest 0 (rev (olog s')) = Some 0%nat.
Proof. intros H. apply exec_runs in H. exact (runs_nested _ _ _ _ _ _ H 0%nat eq_refl). Qed.
