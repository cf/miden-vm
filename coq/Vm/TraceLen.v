(* Trace length (processor/src/trace/mod.rs: finalize_trace):
   len = next_power_of_two (max (clk + 1, range rows, chiplet rows) + 1): the executed cycles, one
   row for HALT (where the tables and buses updated by the last END reach their final values) and
   the random row; it does not mention the expected-cycles hint at all. *)
From Coq Require Import ZArith Lia.
From MV Require Import Vm.Options.
Open Scope Z_scope.

Definition trace_len (clk range_rows chiplet_rows : Z) : Z :=
  next_pow2_z (Z.max (Z.max range_rows (clk + 1)) chiplet_rows + 1).

Definition is_pow2 (x : Z) : Prop := exists k, 0 <= k /\ x = 2 ^ k.

Lemma npow2_fuel_spec : forall fuel k x,
  0 <= k -> 2 ^ k < 2 * x \/ k = 0 -> x <= 2 ^ (k + Z.of_nat fuel) ->
  let r := npow2_fuel fuel (2 ^ k) x in
  x <= r /\ is_pow2 r /\ (r < 2 * x \/ r = 1).
Proof.
  induction fuel as [|f IH]; intros k x Hk Hlow Hup; cbn [npow2_fuel];
    [rewrite Z.add_0_r in Hup | destruct (Z.leb_spec x (2 ^ k)) as [E|E]].
  (* the result is 2^k: out of fuel, or x <= 2^k *)
  1, 2: split; [assumption|]; split; [exists k; auto | destruct Hlow as [H| ->]; auto].
  replace (2 * 2 ^ k) with (2 ^ (k + 1)) by (rewrite Z.pow_add_r by lia; ring).
  apply IH; [lia | left; rewrite Z.pow_add_r by lia; lia|].
  replace (k + 1 + Z.of_nat f) with (k + Z.of_nat (S f)) by lia. exact Hup.
Qed.

Theorem next_pow2_z_spec x :
  0 < x <= 4294967296 ->
  x <= next_pow2_z x /\ is_pow2 (next_pow2_z x) /\ (next_pow2_z x < 2 * x \/ next_pow2_z x = 1).
Proof.
  intros Hx.
  apply (npow2_fuel_spec 32 0 x); [lia | right; reflexivity | cbn; lia].
Qed.

(* the trace is long enough for the executed cycles and a HALT row, the range table and the
   chiplets, plus the random row; it is a power of two, and is the smallest such power *)
Theorem trace_len_spec clk rng chp :
  0 <= clk -> 0 <= rng -> 0 <= chp -> Z.max (Z.max rng (clk + 1)) chp + 1 <= 4294967296 ->
  let l := trace_len clk rng chp in
  clk + 2 <= l /\ rng + 1 <= l /\ chp + 1 <= l /\ is_pow2 l /\
  l < 2 * (Z.max (Z.max rng (clk + 1)) chp + 1).
Proof.
  intros H1 H2 H3 H4. unfold trace_len.
  destruct (next_pow2_z_spec (Z.max (Z.max rng (clk + 1)) chp + 1) ltac:(lia)) as [A [B C]].
  repeat split; try exact B; lia.
Qed.
