(* The cycle limit: behaviour of the interpreter under different limits (C15), clock
   monotonicity, and absence of fuel exhaustion. *)
From Coq Require Import ZArith Lia.
From MV Require Import Core.Rpo Core.Mast Vm.State Vm.Step Vm.StepProps Vm.Exec Vm.ExecInd.
Open Scope Z_scope.

(* [lim c0 F]: F is a computation parameterised by the cycle limit that starts at clock c0.
   If it succeeds under some limit with final clock n then it behaves identically under every
   limit >= n, and under a limit m' with c0 <= m' < n it stops with CycleLimit m' after exactly
   m' + 1 clock increments (i.e. no cycle beyond the limit completes). *)
Definition lim (c0 : Z) (F : Z -> result state) : Prop :=
  forall m s', F m = Ok s' ->
    c0 <= clk s' /\
    forall m', (clk s' <= m' -> F m' = Ok s') /\
               (c0 <= m' < clk s' ->
                exists s2, F m' = Err (CycleLimit m') s2 /\ clk s2 = m' + 1).

Lemma lim_err c0 e s : lim c0 (fun _ => Err e s).
Proof. intros m s' H; discriminate. Qed.

Lemma lim_ok s : lim (clk s) (fun _ => Ok s).
Proof.
  intros m s' H. apply Ok_inj in H; subst s'. split; [lia|].
  intros m'; split; [reflexivity | lia].
Qed.

Lemma lim_cstep lab o s : lim (clk s) (fun m => cstep m lab o s).
Proof.
  intros m s' H. pose proof (cstep_ok _ _ _ _ _ H) as [Hc _]. split; [lia|].
  intros m'. rewrite (cstep_limit _ m' _ _ _ _ H).
  destruct (Z.ltb_spec m' (clk s')); split; intros Hm'; try lia; [|reflexivity].
  exists s'. split; [reflexivity | lia].
Qed.

(* a limit below the final clock stops the run in F if F ends beyond it, and in G otherwise *)
Lemma lim_bind c0 F G :
  lim c0 F -> (forall s1, lim (clk s1) (fun m => G m s1)) -> lim c0 (fun m => bind (F m) (G m)).
Proof.
  intros HF HG m s' H. apply bind_ok in H as (s1 & H1 & H).
  destruct (HF m s1 H1) as [Hc1 HF1], (HG s1 m s' H) as [Hc2 HG1].
  split; [lia|]. intros m'. destruct (HF1 m') as [Fa Fb], (HG1 m') as [Ga Gb]. unfold bind.
  destruct (Z_le_gt_dec (clk s1) m') as [Hge|Hlt].
  - rewrite Fa by exact Hge. split; [exact Ga | intros Hm'; apply Gb; lia].
  - split; intros Hm'; [lia|]. destruct Fb as (s2 & E2 & Hs2); [lia|]. rewrite E2. eauto.
Qed.

Lemma exec_all_lim T K : forall fuel, exec_all T K (fun _ => lim) fuel.
Proof. apply exec_closed; auto using lim_ok, lim_err, lim_cstep, lim_bind. Qed.

(* C15, first half: the cycle limit is exact. *)
Theorem exec_limit_exact fuel p inputs advice M s' :
  exec_program fuel M p inputs advice = Ok s' ->
  forall m, 0 <= m ->
    (clk s' <= m -> exec_program fuel m p inputs advice = Ok s') /\
    (m < clk s' -> exists s2, exec_program fuel m p inputs advice = Err (CycleLimit m) s2
                              /\ clk s2 = m + 1).
Proof.
  intros H m Hm.
  destruct (exec_all_lim (p_table p) (p_kernel p) fuel) as [Hb _].
  destruct (Hb (p_root p) (init_state inputs advice) M s' H) as [_ Hl].
  destruct (Hl m) as [H1 H2]. split; [exact H1|].
  intros Hlt. apply H2. cbn. lia.
Qed.

Lemma steps_clk_le m ops : forall s s', steps m ops s = Ok s' -> clk s <= clk s'.
Proof.
  induction ops as [|o ops IH]; intros s s' H; cbn [steps] in H.
  - apply Ok_inj in H; subst; lia.
  - apply bind_ok in H as (s1 & H1 & H). apply step_ok in H1. apply IH in H. lia.
Qed.

(* fuel is never the reason to stop: no two units of fuel go by without a cycle *)

Lemma lift_pure_no_oof s r e s1 : lift_pure s r = Err e s1 -> e <> OutOfFuel.
Proof.
  destruct r as [l|pe]; cbn; intros H; [discriminate|]. inversion H; subst.
  destruct pe; discriminate.
Qed.

Lemma exec_op_no_oof o s e s1 : exec_op o s = Err e s1 -> e <> OutOfFuel.
Proof.
  intros H. destruct o; cbn [exec_op] in H; try (exact (lift_pure_no_oof _ _ _ _ H));
    repeat (first [ discriminate H | break_if H ]);
    inversion H; discriminate.
Qed.

Lemma cstep_no_oof m lab o s s1 : cstep m lab o s <> Err OutOfFuel s1.
Proof.
  rewrite cstep_eq. destruct (exec_op o s) as [s2|e s2] eqn:E; [cbv zeta; destruct (m <? _); discriminate|].
  intros H. inversion H; subst. exact (exec_op_no_oof _ _ _ _ E eq_refl).
Qed.

Section NoOutOfFuel.
Variable m : Z.
Variable table : list (word * block).
Variable kernel : list word.

Local Notation EL := (exec_loop m table kernel).
Local Notation ED := (exec_dyn m table kernel).

Lemma EL_clk fuel b s s' : EL fuel b s = Ok s' -> clk s <= clk s'.
Proof. intros H. exact (proj1 (proj1 (proj2 (exec_all_lim table kernel fuel)) b s m s' H)). Qed.
Lemma ED_clk fuel s s' : ED fuel s = Ok s' -> clk s <= clk s'.
Proof. intros H. exact (proj1 (proj2 (proj2 (proj2 (exec_all_lim table kernel fuel))) s m s' H)). Qed.

Definition budget (c : Z) : nat := Z.to_nat (m + 1 - c).

(* [fueled k c F]: under the limit m, F started at clock c does not put the clock back, and does
   not stop for lack of fuel when k exceeds twice the cycles that are left, plus one *)
Definition fueled (k : nat) (c : Z) (F : Z -> result state) : Prop :=
  (forall s', F m = Ok s' -> c <= clk s') /\
  ((2 * budget c + 1 < k)%nat -> forall s1, F m <> Err OutOfFuel s1).

Lemma exec_all_fueled : forall fuel, exec_all table kernel fueled fuel.
Proof.
  (* Q_ok, Q_err, Q_oof, Q_cstep, Q_bind, Q_tick, Q_weak *)
  apply exec_closed; unfold fueled, budget.
  - intros k s. split; [intros s' H; apply Ok_inj in H; subst; lia | discriminate].
  - intros k c e s He. split; [discriminate | intros _ s1 H; inversion H; congruence].
  - intros c s. split; [discriminate | lia].
  - intros k lab o s. split; [intros s' H; apply cstep_ok in H; lia | intros _; apply cstep_no_oof].
  - intros k c F G [M1 S1] HG. unfold bind. destruct (F m) as [s1|e s1]; [|split; [discriminate | exact S1]].
    specialize (M1 _ eq_refl). destruct (HG s1) as [M2 S2].
    split; [intros s' H; apply M2 in H; lia | intros Hk; apply S2; lia].
  - (* after the cycle the budget is one less, which makes up for the two units *)
    intros k lab o s G HG. unfold bind. destruct (cstep m lab o s) as [s1|e s1] eqn:E.
    + apply cstep_ok in E. destruct (HG s1) as [M2 S2].
      split; [intros s' H; apply M2 in H; lia | intros Hk; apply S2; lia].
    + split; [discriminate | intros _; rewrite <- E; apply cstep_no_oof].
  - intros k c F [M S]. split; [exact M | intros Hk; apply S; lia].
Qed.

End NoOutOfFuel.

(* C15, second half: with fuel 2m + 4 the interpreter never runs out of fuel, i.e. every program,
   including one that loops forever, stops with a result or an error within the cycle limit. *)
Theorem exec_total p inputs advice m (fuel : nat) :
  0 <= m -> (2 * Z.to_nat (m + 1) + 1 < fuel)%nat ->
  forall s1, exec_program fuel m p inputs advice <> Err OutOfFuel s1.
Proof.
  intros Hm Hf.
  destruct (exec_all_fueled m (p_table p) (p_kernel p) fuel) as [Hb _].
  apply (proj2 (Hb _ _)). unfold budget. cbn. lia.
Qed.
