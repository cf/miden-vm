(* Control-flow semantics of the interpreter: SPLIT, LOOP and JOIN. *)
From Coq Require Import ZArith.
From MV Require Import Core.Op Core.Rpo Core.Mast Vm.State Vm.Step Vm.Exec.
Open Scope Z_scope.

Lemma bit_cases {A} c (x y z : A) (r := if c =? 1 then x else if c =? 0 then y else z) :
  (c = 1 -> r = x) /\ (c = 0 -> r = y) /\ (c <> 0 -> c <> 1 -> r = z).
Proof. subst r. destruct (Z.eqb_spec c 1), (Z.eqb_spec c 0); repeat split; congruence. Qed.

Section Control.
Variable m : Z.
Variable T : list (word * block).
Variable K : list word.
Local Notation EB := (exec_block m T K).
Local Notation EL := (exec_loop m T K).

(* if/else: the popped value selects the branch; anything but 0/1 fails after the SPLIT row and
   neither branch runs (the error state is the state right after the condition was dropped) *)
Lemma split_cases f t e s s1 : cstep m Split Drop s = Ok s1 ->
  (get s 0 = 1 -> EB (S f) (BSplit t e) s = bind (EB f t s1) (cstep m End Noop)) /\
  (get s 0 = 0 -> EB (S f) (BSplit t e) s = bind (EB f e s1) (cstep m End Noop)) /\
  (get s 0 <> 0 -> get s 0 <> 1 -> EB (S f) (BSplit t e) s = Err (NotBinary (get s 0)) s1).
Proof. intros Hs. cbn [exec_block]. unfold cst. rewrite Hs. apply bit_cases. Qed.

Lemma loop_entry_cases f body s s1 : cstep m Loop Drop s = Ok s1 ->
  (get s 0 = 1 -> EB (S f) (BLoop body) s = bind (EB f body s1) (EL f body)) /\
  (get s 0 = 0 -> EB (S f) (BLoop body) s = cstep m End Noop s1) /\
  (get s 0 <> 0 -> get s 0 <> 1 -> EB (S f) (BLoop body) s = Err (NotBinary (get s 0)) s1).
Proof. intros Hs. cbn [exec_block]. unfold cst. rewrite Hs. apply bit_cases. Qed.

(* while: after an iteration the value on top decides: 1 repeats, 0 leaves, anything else fails *)
Lemma loop_iter_cases f body s :
  (get s 0 = 1 -> EL (S f) body s =
     bind (cstep m Repeat Drop s) (fun s1 => bind (EB f body s1) (EL f body))) /\
  (get s 0 = 0 -> EL (S f) body s = cstep m End Drop s) /\
  (get s 0 <> 0 -> get s 0 <> 1 -> EL (S f) body s = Err (NotBinary (get s 0)) s).
Proof. apply bit_cases. Qed.

(* join: first child, then second child, between a JOIN row and an END row *)
Lemma join_seq f x y s :
  EB (S f) (BJoin x y) s =
  bind (cstep m Join Noop s) (fun s1 => bind (EB f x s1) (fun s2 => bind (EB f y s2) (cstep m End Noop))).
Proof. reflexivity. Qed.

End Control.
