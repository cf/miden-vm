(* ExecutionOptions::new (air/src/options.rs) *)
From Coq Require Import ZArith Lia.
From MV Require Import Gen.ConstGen.
Open Scope Z_scope.

Definition U32_MAX : Z := 4294967295.

(* u32::next_power_of_two for 0 < x <= 2^31 (larger arguments overflow in Rust) *)
Fixpoint npow2_fuel (fuel : nat) (p x : Z) : Z :=
  match fuel with
  | O => p
  | S f => if x <=? p then p else npow2_fuel f (2 * p) x
  end.
Definition next_pow2_z (x : Z) : Z := npow2_fuel 32 1 x.

(* returns Some (max_cycles, expected_cycles) or None for an error *)
Definition exec_options_new (max_cycles : option Z) (expected : Z) : option (Z * Z) :=
  let m := match max_cycles with Some m => m | None => U32_MAX end in
  if m <? MIN_TRACE_LEN then None
  else if m <? expected then None
  else Some (m, Z.max (next_pow2_z expected) MIN_TRACE_LEN).

Lemma exec_options_refused mc e :
  let m := match mc with Some m => m | None => U32_MAX end in
  exec_options_new mc e = None <-> (m < MIN_TRACE_LEN \/ m < e).
Proof.
  intros m. unfold exec_options_new. fold m.
  destruct (Z.ltb_spec m MIN_TRACE_LEN), (Z.ltb_spec m e); split; intros; first [reflexivity | discriminate | lia].
Qed.
