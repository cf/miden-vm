(* Basic facts about one VM cycle: what an operation leaves alone, clock bookkeeping and
   independence of the cycle limit. *)
From Coq Require Import ZArith Lia.
From MV Require Import Vm.State Vm.Pure Vm.Step.
Open Scope Z_scope.

Lemma bind_ok {A B} (F : result A) (G : A -> result B) b :
  bind F G = Ok b -> exists a, F = Ok a /\ G a = Ok b.
Proof. destruct F as [a|e s]; [intros H; exists a; auto | discriminate]. Qed.

Ltac break_if H :=
  match type of H with
  | context [if ?c then _ else _] => destruct c eqn:?
  | context [match ?c with _ => _ end] => destruct c eqn:?
  end.

(* [exec_op] changes the state only through set_stack, set_fmp, set_adv and writes to the memory of
   its own context: an observation [f] that these leave alone is left alone by every operation *)
Section Keeps.
Variable A : Type.
Variable f : state -> A.
Variable c0 : Z.
Hypothesis f_stack : forall s st oa, f (set_stack s st oa) = f s.
Hypothesis f_fmp : forall s x, f (set_fmp s x) = f s.
Hypothesis f_adv : forall s x, f (set_adv s x) = f s.
Hypothesis f_write : forall s a w, f (mem_write s c0 a w) = f s.

Lemma replace_top_keeps k new s : f (replace_top k new s) = f s.
Proof.
  unfold replace_top. destruct (Nat.compare (length new) k); [|destruct (Nat.eqb (depth s) MIN_DEPTH)|];
    apply f_stack.
Qed.

Lemma lift_pure_keeps s r s' : lift_pure s r = Ok s' -> f s' = f s.
Proof. destruct r; cbn; intros H; [apply Ok_inj in H; subst s'; apply f_stack | discriminate]. Qed.

Lemma exec_op_keeps o s s' : ctx s = c0 -> exec_op o s = Ok s' -> f s' = f s.
Proof.
  intros Hc H. destruct o; cbn [exec_op] in H; try (exact (lift_pure_keeps _ _ _ H));
    repeat (first [ discriminate H | break_if H ]);
    apply Ok_inj in H; subst s'; rewrite ?Hc;
    rewrite ?f_adv, ?f_fmp, ?replace_top_keeps, ?f_write; reflexivity.
Qed.
End Keeps.

Lemma exec_op_clk o s s' : exec_op o s = Ok s' -> clk s' = clk s.
Proof. eapply exec_op_keeps; reflexivity. Qed.

(* a cycle with the clock written out: an operation leaves the clock alone *)
Lemma cstep_eq m lab o s :
  cstep m lab o s =
  match exec_op o s with
  | Ok s1 => let s' := set_clk (log_op lab s1) (clk s + 1) in
             if m <? clk s + 1 then Err (CycleLimit m) s' else Ok s'
  | Err e s1 => Err e s1
  end.
Proof.
  unfold cstep, bind, advance_clock. destruct (exec_op o s) as [s1|e s1] eqn:E; [|reflexivity].
  cbn [clk set_clk log_op]. rewrite (exec_op_clk _ _ _ E). reflexivity.
Qed.

Lemma cstep_inv m lab o s s' :
  cstep m lab o s = Ok s' ->
  exists s1, exec_op o s = Ok s1 /\ clk s + 1 <= m /\ s' = set_clk (log_op lab s1) (clk s + 1).
Proof.
  rewrite cstep_eq. destruct (exec_op o s) as [s1|]; [|discriminate].
  cbv zeta. destruct (Z.ltb_spec m (clk s + 1)); [discriminate|]. intros E. apply Ok_inj in E. eauto.
Qed.

Lemma cstep_ok m lab o s s' :
  cstep m lab o s = Ok s' -> clk s' = clk s + 1 /\ clk s' <= m.
Proof. intros H. apply cstep_inv in H as (s1 & _ & Hm & ->). cbn. lia. Qed.

Lemma cstep_limit m m' lab o s s' :
  cstep m lab o s = Ok s' ->
  cstep m' lab o s = if m' <? clk s' then Err (CycleLimit m') s' else Ok s'.
Proof. intros H. apply cstep_inv in H as (s1 & H1 & _ & ->). rewrite cstep_eq, H1. reflexivity. Qed.

Lemma cstep_op_err m lab o s e s1 : exec_op o s = Err e s1 -> cstep m lab o s = Err e s1.
Proof. intros H. rewrite cstep_eq, H. reflexivity. Qed.

Lemma exec_op_pure o s : is_pure o = true -> exec_op o s = lift_pure s (pure_op o (stk s)).
Proof. destruct o; intros H; try discriminate H; reflexivity. Qed.

Lemma step_ok m o s s' : step m o s = Ok s' -> clk s' = clk s + 1 /\ clk s' <= m.
Proof. apply cstep_ok. Qed.
