(* The induction on the fuel of the four mutually recursive functions of Vm/Exec.v, said twice:
   [exec_closed] for properties of a run as a whole, failures included (closure under what the
   interpreter is written with), and [exec_runs] for properties of successful runs (inversion:
   a big-step relation whose derivations are the interpreter's Ok paths). *)
From Coq Require Import ZArith List.
From MV Require Import Core.Op Core.Rpo Core.Mast Gen.ConstGen Vm.State Vm.Step Vm.StepProps Vm.Exec.
Import ListNotations.
Open Scope Z_scope.

Lemma restore_ctx_clk c s : clk (restore_ctx c s) = clk s.
Proof. unfold restore_ctx. destruct (saved s) as [|[v a] r]; reflexivity. Qed.

(* [Q k c F]: the computation F, a function of the cycle limit, starts at clock c with k units
   of fuel in hand.  The interpreter is built from Ok, Err, cstep and bind.  Every recursive call
   costs a unit of fuel; a block reaches a call or dyn node with no cycle in between, every other
   recursive call comes after a cycle: so a cycle pays for two units (Q_tick), and a computation
   that was given at most one unit may answer OutOfFuel (Q_oof).  A property that does not speak of
   fuel ignores k: Q_oof is then Q_err without its side condition, Q_tick is Q_bind after Q_cstep and
   Q_weak is the identity (ExecProps.exec_all_lim is such an instance). *)
Section Closed.
Variable T : list (word * block).
Variable K : list word.
Variable Q : nat -> Z -> (Z -> result state) -> Prop.
Hypothesis Q_ok : forall k s, Q k (clk s) (fun _ => Ok s).
Hypothesis Q_err : forall k c e s, e <> OutOfFuel -> Q k c (fun _ => Err e s).
Hypothesis Q_oof : forall c s, Q 1 c (fun _ => Err OutOfFuel s).
Hypothesis Q_cstep : forall k lab o s, Q k (clk s) (fun m => cstep m lab o s).
Hypothesis Q_bind : forall k c F G,
  Q k c F -> (forall s1, Q k (clk s1) (fun m => G m s1)) -> Q k c (fun m => bind (F m) (G m)).
Hypothesis Q_tick : forall k lab o s G,
  (forall s1, Q k (clk s1) (fun m => G m s1)) ->
  Q (S (S k)) (clk s) (fun m => bind (cstep m lab o s) (G m)).
Hypothesis Q_weak : forall k c F, Q (S k) c F -> Q k c F.

Lemma closed_csteps k ops : forall s, Q k (clk s) (fun m => csteps m ops s).
Proof.
  induction ops as [|[lab o] ops IH]; intros s; cbn [csteps];
    [apply Q_ok | apply Q_bind; [apply Q_cstep | exact IH]].
Qed.

(* the test of a condition popped by SPLIT, LOOP or REPEAT *)
Lemma closed_bit k c v F G s :
  Q k c F -> Q k c G ->
  Q k c (fun m => if v =? 1 then F m else if v =? 0 then G m else Err (NotBinary v) s).
Proof. intros HF HG. destruct (v =? 1); [|destruct (v =? 0)]; auto. apply Q_err; discriminate. Qed.

Definition exec_all (fuel : nat) : Prop :=
  (forall b s, Q fuel (clk s) (fun m => exec_block m T K fuel b s)) /\
  (forall body s, Q fuel (clk s) (fun m => exec_loop m T K fuel body s)) /\
  (forall h sys s, Q (S fuel) (clk s) (fun m => exec_call m T K fuel h sys s)) /\
  (forall s, Q (S fuel) (clk s) (fun m => exec_dyn m T K fuel s)).

Theorem exec_closed : forall fuel, exec_all fuel.
Proof.
  induction fuel as [|f (IHb & IHl & IHc & IHd)]; [repeat split; intros; cbn; auto|].
  (* a block or loop is one unit of fuel better off than it needs to be *)
  assert (tick : forall lab o s G, (forall s1, Q f (clk s1) (fun m => G m s1)) ->
                 Q (S f) (clk s) (fun m => bind (cstep m lab o s) (G m))) by auto.
  repeat split.
  - intros [ops|x y|t e|body|h|h|] s; cbn [exec_block]; unfold cst.
    + apply closed_csteps.
    + apply tick; intros s1. apply Q_bind; [apply IHb|]; intros s2.
      apply Q_bind; [apply IHb|]; intros s3. apply Q_cstep.
    + apply tick; intros s1. apply closed_bit; (apply Q_bind; [apply IHb|]; intros s2; apply Q_cstep).
    + apply tick; intros s1. apply closed_bit; [apply Q_bind; [apply IHb | apply IHl] | apply Q_cstep].
    + apply IHc.
    + destruct (kernel_has K h); [apply IHc | apply Q_err; discriminate].
    + apply IHd.
  - intros body s; cbn [exec_loop]; unfold cst. apply closed_bit; [|apply Q_cstep].
    apply tick; intros s1. apply Q_bind; [apply IHb | apply IHl].
  - intros h sys s; cbn [exec_call]; unfold cst.
    apply (Q_tick _ _ _ (start_call_ctx s h sys)); intros s1. apply Q_bind.
    + destruct (word_eqb h DYN_HASH); [apply Q_weak, IHd|].
      destruct (table_get T h); [apply IHb | apply Q_err; discriminate].
    + intros s2. destruct (Nat.ltb 16 (depth s2)); [apply Q_err; discriminate|].
      rewrite <- (restore_ctx_clk s s2). apply Q_cstep.
  - intros s; cbn [exec_dyn]; unfold cst. apply Q_tick; intros s1.
    destruct (table_get T _); [|apply Q_err; discriminate].
    apply Q_bind; [apply IHb|]; intros s2; apply Q_cstep.
Qed.
End Closed.

Inductive what := WB (b : block) | WL (body : block) | WC (h : word) (sys : bool).

Lemma bit_ok {A} c (x y : result A) e s r :
  (if c =? 1 then x else if c =? 0 then y else Err e s) = Ok r ->
  c = 1 /\ x = Ok r \/ c = 0 /\ y = Ok r.
Proof. destruct (Z.eqb_spec c 1); [auto|]. destruct (Z.eqb_spec c 0); [auto | discriminate]. Qed.

Section Runs.
Variable m : Z.
Variable T : list (word * block).
Variable K : list word.

(* the code a call to h enters; the dyn node stands for itself *)
Definition callee (h : word) : option block :=
  if word_eqb h DYN_HASH then Some BDyn else table_get T h.

(* [runs w s s']: w started in s completes in s'.  [WL body] is a loop after one iteration of
   its body (exec_loop), [WC h sys] the context switch around a callee (exec_call). *)
Inductive runs : what -> state -> state -> Prop :=
| r_span ops s s' :
    csteps m (span_stream ops) s = Ok s' -> runs (WB (BSpan ops)) s s'
| r_join x y s s1 s2 s3 s' :
    cstep m Join Noop s = Ok s1 -> runs (WB x) s1 s2 -> runs (WB y) s2 s3 ->
    cstep m End Noop s3 = Ok s' -> runs (WB (BJoin x y)) s s'
| r_split_true t e s s1 s2 s' :
    get s 0 = 1 -> cstep m Split Drop s = Ok s1 -> runs (WB t) s1 s2 ->
    cstep m End Noop s2 = Ok s' -> runs (WB (BSplit t e)) s s'
| r_split_false t e s s1 s2 s' :
    get s 0 = 0 -> cstep m Split Drop s = Ok s1 -> runs (WB e) s1 s2 ->
    cstep m End Noop s2 = Ok s' -> runs (WB (BSplit t e)) s s'
| r_loop_enter body s s1 s2 s' :
    get s 0 = 1 -> cstep m Loop Drop s = Ok s1 -> runs (WB body) s1 s2 -> runs (WL body) s2 s' ->
    runs (WB (BLoop body)) s s'
| r_loop_skip body s s1 s' :
    get s 0 = 0 -> cstep m Loop Drop s = Ok s1 -> cstep m End Noop s1 = Ok s' ->
    runs (WB (BLoop body)) s s'
| r_call h s s' : runs (WC h false) s s' -> runs (WB (BCall h)) s s'
| r_syscall h s s' : kernel_has K h = true -> runs (WC h true) s s' -> runs (WB (BSysCall h)) s s'
| r_dyn body s s1 s2 s' :
    cstep m Dyn Noop s = Ok s1 -> table_get T [get s 3; get s 2; get s 1; get s 0] = Some body ->
    runs (WB body) s1 s2 -> cstep m End Noop s2 = Ok s' -> runs (WB BDyn) s s'
| r_again body s s1 s2 s' :
    get s 0 = 1 -> cstep m Repeat Drop s = Ok s1 -> runs (WB body) s1 s2 -> runs (WL body) s2 s' ->
    runs (WL body) s s'
| r_exit body s s' : get s 0 = 0 -> cstep m End Drop s = Ok s' -> runs (WL body) s s'
| r_ctx h (sys : bool) body s s1 s2 s' :
    cstep m (if sys then SysCall else Call) Noop (start_call_ctx s h sys) = Ok s1 ->
    callee h = Some body -> runs (WB body) s1 s2 -> (depth s2 <= 16)%nat ->
    cstep m End Noop (restore_ctx s s2) = Ok s' -> runs (WC h sys) s s'.

Lemma exec_runs : forall fuel,
  (forall b s s', exec_block m T K fuel b s = Ok s' -> runs (WB b) s s') /\
  (forall body s s', exec_loop m T K fuel body s = Ok s' -> runs (WL body) s s') /\
  (forall h sys s s', exec_call m T K fuel h sys s = Ok s' -> runs (WC h sys) s s') /\
  (forall s s', exec_dyn m T K fuel s = Ok s' -> runs (WB BDyn) s s').
Proof.
  induction fuel as [|f (IHb & IHl & IHc & IHd)]; [repeat split; discriminate|].
  repeat split.
  - intros [ops|x y|t e|body|h|h|] s s' H; cbn [exec_block] in H; unfold cst in H.
    + apply r_span, H.
    + apply bind_ok in H as (s1 & H1 & H). apply bind_ok in H as (s2 & H2 & H).
      apply bind_ok in H as (s3 & H3 & H). eauto using runs.
    + apply bind_ok in H as (s1 & H1 & H).
      apply bit_ok in H as [[E H]|[E H]]; apply bind_ok in H as (s2 & H2 & H); eauto using runs.
    + apply bind_ok in H as (s1 & H1 & H).
      apply bit_ok in H as [[E H]|[E H]]; [apply bind_ok in H as (s2 & H2 & H)|]; eauto using runs.
    + eauto using runs.
    + destruct (kernel_has K h) eqn:E; [eauto using runs | discriminate].
    + auto.
  - intros body s s' H; cbn [exec_loop] in H; unfold cst in H.
    apply bit_ok in H as [[E H]|[E H]]; [|eauto using runs].
    apply bind_ok in H as (s1 & H1 & H). apply bind_ok in H as (s2 & H2 & H). eauto using runs.
  - intros h sys s s' H; cbn [exec_call] in H; unfold cst in H.
    apply bind_ok in H as (s1 & H1 & H). apply bind_ok in H as (s2 & H2 & H).
    destruct (Nat.ltb_spec 16 (depth s2)); [discriminate|].
    assert (exists body, callee h = Some body /\ runs (WB body) s1 s2) as (body & Hc & Hr).
    { unfold callee. destruct (word_eqb h DYN_HASH); [eauto|].
      destruct (table_get T h); [eauto | discriminate]. }
    eauto using runs.
  - intros s s' H; cbn [exec_dyn] in H; unfold cst in H.
    apply bind_ok in H as (s1 & H1 & H). destruct (table_get T _) eqn:E; [|discriminate].
    apply bind_ok in H as (s2 & H2 & H). eauto using runs.
Qed.

End Runs.
