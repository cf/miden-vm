(* Advice-stack operations of the interpreter: what is popped, where it lands, and that an advice
   pop is a push of the popped value (the ground on which Asm/HintDefs.v replaces advice pops by pushes
   of arbitrary values; no theorem composes the two). *)
From Coq Require Import ZArith List Lia.
From MV Require Import Core.Op Vm.Pure Vm.State Vm.Step Vm.MemProps.
Import ListNotations.
Open Scope Z_scope.

(* popping the advice stack is pushing the popped value; the advice stack loses exactly it *)
Lemma advpop_as_push s h r :
  adv s = h :: r -> exec_op AdvPop s = Ok (set_adv (replace_top 0 [h] s) r).
Proof. intros H. cbn [exec_op]. rewrite H. reflexivity. Qed.

Lemma push_stack s v : exists s', exec_op (Push v) s = Ok s' /\ stk s' = v :: stk s /\ adv s' = adv s.
Proof. eexists. split; [reflexivity|]. split; reflexivity. Qed.

Lemma advpop_stack s h r s' :
  adv s = h :: r -> exec_op AdvPop s = Ok s' -> stk s' = h :: stk s /\ adv s' = r.
Proof.
  intros H E. rewrite (advpop_as_push s h r H) in E. inversion E; subst.
  split; reflexivity.
Qed.

(* an empty advice stack makes the pop fail: nothing is invented *)
Lemma advpop_empty s : adv s = [] -> exists e, exec_op AdvPop s = Err e s.
Proof. intros H. cbn [exec_op]. rewrite H. eexists. reflexivity. Qed.

(* adv_loadw: the word lands with its first-popped element deepest, exactly as four single pops
   after dropping the top word would leave it *)
Lemma advpopw_stack s t0 t1 t2 t3 r s' :
  adv s = t0 :: t1 :: t2 :: t3 :: r -> exec_op AdvPopW s = Ok s' ->
  stk s' = t3 :: t2 :: t1 :: t0 :: skipn 4 (stk s) /\ adv s' = r.
Proof.
  intros H E. cbn [exec_op] in E. unfold pop_adv_word in E. rewrite H in E. inversion E; subst.
  split; reflexivity.
Qed.

(* adv_pipe: two words leave the advice stack in order; the first goes to address a, the second
   to a + 1, and both overwrite the top of the stack with the second word on top *)
Lemma pipe_effect s a0 a1 a2 a3 b0 b1 b2 b3 r s' :
  adv s = a0 :: a1 :: a2 :: a3 :: b0 :: b1 :: b2 :: b3 :: r -> exec_op Pipe s = Ok s' ->
  let a := get s 12%nat in
  adv s' = r /\
  firstn 8 (stk s') = [b3; b2; b1; b0; a3; a2; a1; a0] /\
  mem_read s' (ctx s) a = [a0; a1; a2; a3] /\
  (a + 1 <> a -> mem_read s' (ctx s) (a + 1) = [b0; b1; b2; b3]).
Proof.
  intros H E a. cbn [exec_op] in E. fold a in E.
  destruct (negb (u32max_ok a)); [discriminate|].
  destruct (negb (u32max_ok (a + 1))); [discriminate|].
  unfold pop_adv_word in E. rewrite H in E. inversion E; subst.
  split; [reflexivity|]. split; [reflexivity|].
  rewrite !mem_read_set_adv, !mem_read_replace_top.
  split.
  - rewrite write_other by (intros Q; inversion Q; lia). apply read_after_write.
  - intros _. apply read_after_write.
Qed.
