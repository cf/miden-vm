(* Fermat's little theorem, and that the Goldilocks modulus p = 2^64 - 2^32 + 1 is prime, by Proth's
   form of Pocklington's criterion with the 2-part 2^32 of p - 1: for the concrete residue
   C = 7^(2^32-1) mod p we have C^(2^31) = -1 (mod p), checked by computation with Zpow_mod.  Hence
   modulo every prime divisor q of p no exponent below 2^32 takes C to 1, while q - 1 does: q > 2^32
   and q^2 > p.
   Big powers never appear with a concrete base and exponent: the general lemmas are stated for
   variables and instantiated through equations: a tactic that unifies or rewrites inside c ^ 4294967296
   with c a numeral makes Coq evaluate the power, and it does not return. *)
From Coq Require Import ZArith List Lia Znumtheory Zpow_facts Permutation.
From MV Require Import Base.Field.
Import ListNotations.
Open Scope Z_scope.

Lemma pow_diff_div q a b n : 0 <= n -> (q | a - b) -> (q | a ^ n - b ^ n).
Proof.
  intros Hn Hd. pattern n. apply natlike_ind; [| |exact Hn].
  - apply Z.divide_0_r.
  - intros x Hx IH. rewrite !Z.pow_succ_r by exact Hx.
    replace (a * a ^ x - b * b ^ x) with (a * (a ^ x - b ^ x) + (a - b) * b ^ x) by ring.
    apply Z.divide_add_r; [apply Z.divide_mul_r; exact IH | apply Z.divide_mul_l; exact Hd].
Qed.

Lemma prime_div_pow q a n : prime q -> 0 <= n -> (q | a ^ n) -> n = 0 \/ (q | a).
Proof.
  intros Hq Hn. pattern n. apply natlike_ind; [| |exact Hn].
  - intros _. left; reflexivity.
  - intros x Hx IH Hd. right. rewrite Z.pow_succ_r in Hd by exact Hx.
    apply prime_mult in Hd; [|exact Hq]. destruct Hd as [Hd|Hd]; [exact Hd|].
    destruct (IH Hd) as [->|E]; [|exact E]. eapply Z.divide_trans; [exact Hd | apply Z.divide_1_l].
Qed.

Lemma prime_divisor : forall n, 1 < n -> exists q, prime q /\ (q | n).
Proof.
  intros n Hn. assert (H0 : 0 <= n) by lia. revert Hn. pattern n. apply Z_lt_induction; [|exact H0].
  intros x IH Hx. destruct (prime_dec x) as [Hp|Hnp].
  - exists x. split; [exact Hp | apply Z.divide_refl].
  - destruct (not_prime_divide x Hx Hnp) as [a [[Ha1 Ha2] Hd]].
    destruct (IH a ltac:(lia) Ha1) as [q [Hq Hqa]].
    exists q. split; [exact Hq | eapply Z.divide_trans; eauto].
Qed.

Lemma pow_neg_one_odd m : 0 <= m -> (-1) ^ (2 * m + 1) = -1.
Proof.
  intros Hm. rewrite Z.pow_add_r, Z.pow_mul_r by lia.
  change ((-1) ^ 2) with 1. rewrite Z.pow_1_l by exact Hm. reflexivity.
Qed.

(* c^e = -1 and c^d = 1 with d odd: c^(d e) would be both 1 and -1 *)
Lemma order_even q c e d : 2 < q -> 0 <= e -> (q | c ^ e + 1) -> 0 < d -> (q | c ^ d - 1) -> Z.Even d.
Proof.
  intros Hq He A Hd B. destruct (Z.Even_or_Odd d) as [E|[m ->]]; [exact E | exfalso].
  apply (pow_diff_div q _ (-1) (2 * m + 1)) in A; [|lia]. apply (pow_diff_div q _ 1 e He) in B.
  rewrite <- Z.pow_mul_r in A, B by lia. rewrite pow_neg_one_odd in A by lia.
  rewrite Z.pow_1_l, (Z.mul_comm _ e) in B by exact He.
  pose proof (Z.divide_sub_r _ _ _ A B) as D. apply Z.divide_pos_le in D; lia.
Qed.

(* if c^(2^k) = -1 mod q then c^d = 1 mod q only for d >= 2^(k+1): d is even, and d/2 is such an
   exponent for c^2, whose 2^(k-1)-th power is -1 *)
Lemma order_ge q : 2 < q -> forall k, 0 <= k -> forall c d,
  (q | c ^ (2 ^ k) + 1) -> 0 < d -> (q | c ^ d - 1) -> 2 ^ (k + 1) <= d.
Proof.
  intros Hq k Hk. pattern k. apply natlike_ind; [| |exact Hk]; clear k Hk.
  - intros c d Hm1 Hd H1. destruct (order_even q c _ d Hq (Z.pow_nonneg 2 _ ltac:(lia)) Hm1 Hd H1) as [h ->].
    change (2 ^ (0 + 1)) with 2. lia.
  - intros k Hk IH c d Hm1 Hd H1.
    destruct (order_even q c _ d Hq (Z.pow_nonneg 2 _ ltac:(lia)) Hm1 Hd H1) as [h ->].
    rewrite Z.pow_mul_r in H1 by lia. rewrite Z.pow_succ_r, Z.pow_mul_r in Hm1 by lia.
    specialize (IH (c ^ 2) h Hm1 ltac:(lia) H1). rewrite Z.add_succ_l, Z.pow_succ_r by lia. lia.
Qed.

Lemma NoDup_map_on {A B} (f : A -> B) (l : list A) :
  (forall x y, In x l -> In y l -> f x = f y -> x = y) -> NoDup l -> NoDup (map f l).
Proof.
  induction l as [|a l IH]; intros Hinj Hnd; [constructor|].
  inversion Hnd as [|? ? Hna Hnd']; subst. constructor.
  - intros Hin. apply in_map_iff in Hin. destruct Hin as [y [Ey Hy]].
    assert (y = a) by (apply Hinj; [right; exact Hy | left; reflexivity | exact Ey]).
    subst y. contradiction.
  - apply IH; [|exact Hnd']. intros x y Hx Hy. apply Hinj; right; assumption.
Qed.

(* folding an operation that lets its arguments change places does not see the order of the list *)
Lemma fold_right_perm {A} (op : A -> A -> A) e :
  (forall a b c, op a (op b c) = op b (op a c)) ->
  forall l1 l2, Permutation l1 l2 -> fold_right op e l1 = fold_right op e l2.
Proof. intros H l1 l2 HP. induction HP; cbn; congruence. Qed.

Definition zprod (l : list Z) : Z := fold_right Z.mul 1 l.

Lemma prod_perm l l' : Permutation l l' -> zprod l = zprod l'.
Proof. apply fold_right_perm. intros a b c. ring. Qed.

Definition residues (p : Z) : list Z := map Z.of_nat (seq 1 (Z.to_nat (p - 1))).

Lemma in_residues p i : In i (residues p) <-> 0 < i < p.
Proof.
  unfold residues. rewrite in_map_iff. split.
  - intros (k & <- & Hk%in_seq). lia.
  - intros Hi. exists (Z.to_nat i). rewrite in_seq. lia.
Qed.

(* Fermat's little theorem: multiplication by a permutes the residues 1 .. p-1, so their product W
   satisfies a^(p-1) W = W mod p, and p does not divide W *)
Section Fermat.
Variables p a : Z.
Hypothesis p_prime : prime p.
Hypothesis a_unit : ~ (p | a).

Lemma prod_scaled l :
  zprod (map (fun i => (a * i) mod p) l) mod p = (a ^ Z.of_nat (length l) * zprod l) mod p.
Proof.
  induction l as [|i l IH]; [reflexivity|]. cbn [map length]. unfold zprod in *. cbn [fold_right].
  rewrite Nat2Z.inj_succ, Z.pow_succ_r, Zmult_mod_idemp_l, <- Zmult_mod_idemp_r, IH, Zmult_mod_idemp_r by lia.
  f_equal. ring.
Qed.

Lemma prod_unit l : (forall i, In i l -> ~ (p | i)) -> ~ (p | zprod l).
Proof.
  induction l as [|i l IH]; cbn [zprod fold_right]; intros H Hd.
  - pose proof (prime_ge_2 p p_prime). apply Z.divide_pos_le in Hd; lia.
  - apply prime_mult in Hd; [|exact p_prime]. destruct Hd as [Hd|Hd]; [exact (H i (or_introl eq_refl) Hd)|].
    apply IH; [|exact Hd]. intros j Hj. apply H. right. exact Hj.
Qed.

Lemma residue_unit i : In i (residues p) -> ~ (p | i).
Proof. intros Hi%in_residues Hd. apply Z.divide_pos_le in Hd; lia. Qed.

Theorem fermat : a ^ (p - 1) mod p = 1.
Proof.
  pose proof (prime_ge_2 p p_prime) as Hp. set (f := fun i => (a * i) mod p).
  assert (Hin : forall i, In i (residues p) -> In (f i) (residues p)).
  { intros i Hi. apply in_residues. pose proof (Z.mod_pos_bound (a * i) p ltac:(lia)).
    enough (f i <> 0) by (unfold f in *; lia). intros Z0%Z.mod_divide; [|lia].
    apply prime_mult in Z0; [|exact p_prime]. destruct Z0 as [Z0|Z0]; [exact (a_unit Z0) | exact (residue_unit i Hi Z0)]. }
  assert (HP : Permutation (map f (residues p)) (residues p)).
  { apply NoDup_Permutation_bis; [|rewrite map_length; lia|].
    - apply NoDup_map_on; [|apply FinFun.Injective_map_NoDup, seq_NoDup; intros x y; lia].
      intros i j Hi%in_residues Hj%in_residues E.
      assert (D : (p | a * (i - j))).
      { apply Z.mod_divide; [lia|]. rewrite Z.mul_sub_distr_l, Zminus_mod. unfold f in E. rewrite E, Z.sub_diag. reflexivity. }
      apply prime_mult in D; [|exact p_prime]. destruct D as [D|D]; [destruct (a_unit D)|].
      apply Zdivide_mod_minus in D; [|lia]. rewrite Z.mod_small in D by lia. exact D.
    - intros x (i & <- & Hi)%in_map_iff. exact (Hin i Hi). }
  pose proof (prod_scaled (residues p)) as S. fold f in S. rewrite (prod_perm _ _ HP) in S.
  unfold residues in S at 2. rewrite map_length, seq_length, Z2Nat.id in S by lia.
  (* W = a^(p-1) W mod p *)
  apply Zdivide_mod_minus; [lia|]. apply (Gauss p (zprod (residues p))).
  - rewrite Z.mul_sub_distr_l, Z.mul_1_r, (Z.mul_comm (zprod _)). apply Z.mod_divide; [lia|].
    rewrite Zminus_mod, <- S, Z.sub_diag. reflexivity.
  - exact (prime_rel_prime p p_prime _ (prod_unit _ residue_unit)).
Qed.
End Fermat.

(* exponents matter modulo p - 1 only *)
Lemma pow_cycle p y m : prime p -> ~ (p | y) -> 0 <= m -> y ^ ((p - 1) * m + 1) mod p = y mod p.
Proof.
  intros Hp Hy Hm. pose proof (prime_ge_2 p Hp). assert (0 <= (p - 1) * m) by nia.
  rewrite Z.pow_add_r, Z.pow_1_r, Z.pow_mul_r, Zmult_mod, Zpower_mod, (fermat p y Hp Hy) by lia.
  rewrite Z.pow_1_l, Z.mod_1_l, Z.mul_1_l, Z.mod_mod by lia. reflexivity.
Qed.

(* c^(2^k) = -1 modulo a prime q > 2 puts q above 2^(k+1): q does not divide c, so q - 1 is an
   exponent that takes c to 1 *)
Lemma order_bound q c k : prime q -> 2 < q -> 0 <= k -> (q | c ^ (2 ^ k) + 1) -> 2 ^ (k + 1) <= q - 1.
Proof.
  intros Hq Hq2 Hk Hm1.
  assert (Hc : ~ (q | c)).
  { intros Hc. apply (Z.divide_add_cancel_r q (c ^ 2 ^ k)) in Hm1; [apply Z.divide_pos_le in Hm1; lia|].
    eapply Z.divide_trans; [exact Hc|]. apply Zpower_divide, Z.pow_pos_nonneg; lia. }
  apply (order_ge q Hq2 k Hk c); [exact Hm1 | lia |].
  apply Zmod_divide_minus; [lia | exact (fermat q c Hq Hc)].
Qed.

(* Proth's form of Pocklington's criterion: c^(2^k) = -1 modulo an odd N puts every prime factor
   of N, hence every divisor but 1, above 2^(k+1); N <= 2^(2k+2) has no room for two of them *)
Section Proth.
Variables N c k : Z.
Hypothesis N_odd : ~ (2 | N).
Hypothesis k_nonneg : 0 <= k.
Hypothesis root : (N | c ^ (2 ^ k) + 1).

Lemma divisor_big n : 1 < n -> (n | N) -> 2 ^ (k + 1) < n.
Proof.
  intros Hn Hd. destruct (prime_divisor n Hn) as (q & Hq & Hqn). pose proof (prime_ge_2 q Hq).
  assert (HqN : (q | N)) by exact (Z.divide_trans _ _ _ Hqn Hd).
  assert (q <> 2) by (intros ->; exact (N_odd HqN)).
  pose proof (order_bound q c k Hq ltac:(lia) k_nonneg (Z.divide_trans _ _ _ HqN root)).
  apply Z.divide_pos_le in Hqn; lia.
Qed.

Theorem proth : 1 < N -> N <= 2 ^ (k + 1) * 2 ^ (k + 1) -> prime N.
Proof.
  intros HN Hsq. destruct (prime_dec N) as [Hp|Hnp]; [exact Hp|].
  destruct (not_prime_divide N HN Hnp) as (a & [Ha1 Ha2] & b & Hb).
  pose proof (divisor_big a Ha1 (ex_intro _ b Hb)) as A.
  assert (B : 2 ^ (k + 1) < b) by (apply divisor_big; [nia | exists a; lia]).
  nia.
Qed.
End Proth.

Definition C : Z := 1753635133440165772.

Lemma key_fact c k : c = C -> k = 31 -> (P | c ^ (2 ^ k) + 1).
Proof.
  intros Hc Hk. apply Z.mod_divide; [discriminate|].
  rewrite Zplus_mod. rewrite <- Zpow_mod_correct by discriminate.
  rewrite Hc, Hk. vm_compute. reflexivity.
Qed.

Lemma P_odd : ~ (2 | P).
Proof. intros [x H]. unfold P in H. lia. Qed.

Theorem P_prime : prime P.
Proof.
  apply (proth P C 31 P_odd); [discriminate | apply key_fact; reflexivity | reflexivity | discriminate].
Qed.

Theorem P_no_zero_div a b : (a * b) mod P = 0 -> a mod P = 0 \/ b mod P = 0.
Proof.
  intros H. apply Z.mod_divide in H; [|discriminate].
  apply prime_mult in H; [|exact P_prime].
  destruct H as [H|H]; [left|right]; apply Z.mod_divide; try discriminate; exact H.
Qed.
