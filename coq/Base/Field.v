(* Goldilocks field arithmetic on canonical integers: the executable model of
   winter-math f64::BaseElement as the VM observes it (as_int values). *)
From Coq Require Import ZArith Lia.
Open Scope Z_scope.

Definition P : Z := 18446744069414584321.
Definition TWO32 : Z := 4294967296.
Definition TWO64 : Z := 18446744073709551616.
Definition U32MAX : Z := 4294967295.

Definition canon (x : Z) : Prop := 0 <= x < P.
Definition canonb (x : Z) : bool := (0 <=? x) && (x <? P).

Definition fnorm (x : Z) : Z := x mod P.
Definition fadd (a b : Z) : Z := (a + b) mod P.
Definition fsub (a b : Z) : Z := (a - b) mod P.
Definition fmul (a b : Z) : Z := (a * b) mod P.
Definition fneg (a : Z) : Z := (- a) mod P.

(* square-and-multiply on a positive exponent; stays reduced at every step *)
Fixpoint fpow_pos (a : Z) (e : positive) : Z :=
  match e with
  | xH => a mod P
  | xO e' => let h := fpow_pos a e' in fmul h h
  | xI e' => let h := fpow_pos a e' in fmul (fmul h h) a
  end.

Definition fpow (a e : Z) : Z :=
  match e with
  | Z0 => 1
  | Zpos e' => fpow_pos a e'
  | Zneg _ => 0
  end.

(* Rust: inv(0) = 0, otherwise a^(p-2) *)
Definition finv (a : Z) : Z := fpow a 18446744069414584319.

(* Felt::new(x) for a u64 x: reduction mod p *)
Definition felt_of_u64 (x : Z) : Z := x mod P.
(* wrapping u64 arithmetic of release builds *)
Definition wrap64 (x : Z) : Z := x mod TWO64.

Definition is_u32b (x : Z) : bool := (0 <=? x) && (x <? TWO32).

Lemma P_pos : 0 < P. Proof. reflexivity. Qed.

Lemma fnorm_canon x : canon (fnorm x).
Proof. apply Z.mod_pos_bound. reflexivity. Qed.
Lemma fadd_canon a b : canon (fadd a b). Proof. apply fnorm_canon. Qed.
Lemma fsub_canon a b : canon (fsub a b). Proof. apply fnorm_canon. Qed.
Lemma fmul_canon a b : canon (fmul a b). Proof. apply fnorm_canon. Qed.
Lemma fneg_canon a : canon (fneg a). Proof. apply fnorm_canon. Qed.

Lemma fpow_pos_canon a e : canon (fpow_pos a e).
Proof. destruct e; cbn [fpow_pos]; try apply fmul_canon. apply fnorm_canon. Qed.

Lemma fpow_canon a e : canon (fpow a e).
Proof. destruct e; cbn [fpow]. - unfold canon, P; lia. - apply fpow_pos_canon. - unfold canon, P; lia. Qed.
Lemma finv_canon a : canon (finv a). Proof. apply fpow_canon. Qed.

Lemma fpow_pos_spec a e : fpow_pos a e = a ^ Zpos e mod P.
Proof.
  induction e as [e IH|e IH|]; cbn [fpow_pos]; unfold fmul.
  - rewrite IH, Pos2Z.inj_xI, Z.pow_add_r, Z.pow_1_r, Z.pow_twice_r by lia.
    rewrite <- Zmult_mod, Zmult_mod_idemp_l. reflexivity.
  - rewrite IH, Pos2Z.inj_xO, Z.pow_twice_r, <- Zmult_mod. reflexivity.
  - rewrite Z.pow_1_r. reflexivity.
Qed.

Lemma fpow_spec a e : 0 <= e -> fpow a e = a ^ e mod P.
Proof. destruct e; [reflexivity | intros _; apply fpow_pos_spec | lia]. Qed.

Lemma canonb_true x : canonb x = true <-> canon x.
Proof. unfold canonb, canon. rewrite Bool.andb_true_iff, Z.leb_le, Z.ltb_lt. tauto. Qed.

Lemma fmul_comm a b : fmul a b = fmul b a.
Proof. unfold fmul. rewrite Z.mul_comm. reflexivity. Qed.
Lemma fmul_assoc a b c : fmul a (fmul b c) = fmul (fmul a b) c.
Proof. unfold fmul. rewrite Zmult_mod_idemp_r, Zmult_mod_idemp_l, Z.mul_assoc. reflexivity. Qed.
Lemma fadd_comm a b : fadd a b = fadd b a.
Proof. unfold fadd. rewrite Z.add_comm. reflexivity. Qed.
Lemma fadd_assoc a b c : fadd a (fadd b c) = fadd (fadd a b) c.
Proof. unfold fadd. rewrite Zplus_mod_idemp_r, Zplus_mod_idemp_l, Z.add_assoc. reflexivity. Qed.
Lemma fadd_0_l x : canon x -> fadd 0 x = x.
Proof. unfold fadd, canon. intros H. apply Z.mod_small. lia. Qed.
Lemma fadd_0_r x : canon x -> fadd x 0 = x.
Proof. unfold fadd, canon. intros H. rewrite Z.add_0_r. apply Z.mod_small. lia. Qed.
Lemma fmul_1_r x : canon x -> fmul x 1 = x.
Proof. unfold fmul, canon. intros H. rewrite Z.mul_1_r. apply Z.mod_small. lia. Qed.
Lemma fsub_as_add a b : fadd a (fneg b) = fsub a b.
Proof. unfold fadd, fneg, fsub. rewrite Zplus_mod_idemp_r. reflexivity. Qed.

(* [x mod P] is a long division of a 128-bit number, which the kernel's reduction machine does bit
   by bit.  With x = h1 2^96 + h0 2^64 + lo, and 2^64 = 2^32 - 1, 2^96 = -1 (mod P), the same
   residue comes from masks and shifts.  [gmul] and [gadd] are [fmul] and [fadd], computed that way
   on canonical arguments; closed terms are evaluated over them (Core/RpoCheck.v, Asm/ImmInstr.v). *)
Definition gred (x : Z) : Z :=
  let hi := Z.shiftr x 64 in
  let h0 := Z.land hi U32MAX in
  let t := Z.land x 18446744073709551615 - Z.shiftr hi 32 + Z.shiftl h0 32 - h0 in
  if t <? 0 then t + P else if t <? P then t else t - P.
Definition gmul (a b : Z) : Z := if (canonb a && canonb b)%bool then gred (a * b) else fmul a b.
Definition gadd (a b : Z) : Z :=
  if (canonb a && canonb b)%bool then (let s := a + b in if s <? P then s else s - P) else fadd a b.

Lemma gred_mod x : 0 <= x < TWO64 * TWO64 -> gred x = x mod P.
Proof.
  intros Hx. unfold gred. change 18446744073709551615 with (Z.ones 64). change U32MAX with (Z.ones 32).
  rewrite !Z.land_ones, !Z.shiftr_div_pow2, Z.shiftl_mul_pow2 by lia.
  change (2 ^ 64) with TWO64. change (2 ^ 32) with TWO32.
  set (hi := x / TWO64). set (lo := x mod TWO64). set (h1 := hi / TWO32). set (h0 := hi mod TWO32).
  assert (Ex : x = TWO64 * hi + lo) by (apply Z.div_mod; discriminate).
  assert (Eh : hi = TWO32 * h1 + h0) by (apply Z.div_mod; discriminate).
  assert (Bl : 0 <= lo < TWO64) by (apply Z.mod_pos_bound; reflexivity).
  assert (B0 : 0 <= h0 < TWO32) by (apply Z.mod_pos_bound; reflexivity).
  set (t := lo - h1 + h0 * TWO32 - h0).
  assert (Bt : - TWO32 < t < 2 * P) by (unfold t, P, TWO64, TWO32 in *; nia).
  (* x is t up to a multiple of P, and t is less than P away from the canonical range *)
  replace x with (t + (h1 * (TWO32 + 1) + h0) * P) by (unfold t, P, TWO64, TWO32 in *; lia).
  rewrite Z_mod_plus_full.
  destruct (Z.ltb_spec t 0); [|destruct (Z.ltb_spec t P)].
  - apply (Z.mod_unique_pos _ _ (-1)); unfold P, TWO32 in *; lia.
  - symmetry. apply Z.mod_small. lia.
  - apply (Z.mod_unique_pos _ _ 1); lia.
Qed.

Lemma gmul_fmul a b : gmul a b = fmul a b.
Proof.
  unfold gmul. destruct (canonb a && canonb b)%bool eqn:E; [|reflexivity].
  apply Bool.andb_true_iff in E. destruct E as [Ha Hb]. apply canonb_true in Ha, Hb.
  apply gred_mod. unfold canon, P, TWO64 in *. nia.
Qed.

Lemma gadd_fadd a b : gadd a b = fadd a b.
Proof.
  unfold gadd, fadd. destruct (canonb a && canonb b)%bool eqn:E; [|reflexivity].
  apply Bool.andb_true_iff in E. destruct E as [Ha Hb]. apply canonb_true in Ha, Hb. unfold canon in *.
  destruct (Z.ltb_spec (a + b) P); [symmetry; apply Z.mod_small | apply (Z.mod_unique_pos _ _ 1)]; lia.
Qed.
