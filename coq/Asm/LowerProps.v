(* Facts about the lowering: the join tree built from a block sequence keeps the blocks in order,
   span merging keeps the operation sequence, repeat.n contributes n copies of its body's block,
   exec contributes the callee's code itself, and the locals prologue/epilogue restore fmp. *)
From Coq Require Import ZArith List Lia.
From MV Require Import Base.Field Core.Op Core.Mast Asm.Lower.
Import ListNotations.
Open Scope Z_scope.

(* induction two elements at a time, as pair_up_g recurses *)
Lemma list_ind2 {A} (P : list A -> Prop) :
  P [] -> (forall a, P [a]) -> (forall a b l, P l -> P (a :: b :: l)) -> forall l, P l.
Proof. intros H0 H1 H2. fix IH 1. intros [|a [|b l]]; [exact H0 | apply H1 | apply H2, IH]. Qed.

Inductive jtree : Type := JLeaf (b : block) | JNode (l r : jtree).

Fixpoint to_block (t : jtree) : block :=
  match t with JLeaf b => b | JNode l r => BJoin (to_block l) (to_block r) end.
Fixpoint leaves (t : jtree) : list block :=
  match t with JLeaf b => [b] | JNode l r => leaves l ++ leaves r end.

Lemma pair_up_leaves : forall ts,
  flat_map leaves (pair_up_g jtree JNode ts) = flat_map leaves ts.
Proof.
  induction ts as [| |a b ts IH] using list_ind2; cbn [pair_up_g flat_map leaves]; try reflexivity.
  rewrite IH, <- app_assoc. reflexivity.
Qed.

Lemma pair_up_to_block : forall ts,
  map to_block (pair_up_g jtree JNode ts) = pair_up_g block BJoin (map to_block ts).
Proof.
  induction ts as [| |a b ts IH] using list_ind2; try reflexivity.
  cbn [pair_up_g map to_block]. f_equal. apply IH.
Qed.

(* pairing halves the length, so `length` rounds are enough to reach a single tree *)
Lemma pair_up_length {A} J : forall ts : list A,
  (length ts <= 2 * length (pair_up_g A J ts) <= S (length ts))%nat.
Proof. induction ts as [| |a b ts IH] using list_ind2; cbn [pair_up_g length]; lia. Qed.

(* fuel rounds bring up to S fuel trees down to one, which has their leaves in order *)
Lemma join_rounds_tree fuel : forall ts, (1 <= length ts <= S fuel)%nat ->
  exists t, join_rounds fuel (map to_block ts) = [to_block t] /\ leaves t = flat_map leaves ts.
Proof.
  unfold join_rounds.
  induction fuel as [|f IH]; intros [|a [|b ts]] H; cbn [length] in H; try lia;
    try (exists a; split; [reflexivity | symmetry; apply app_nil_r]).
  rewrite <- (pair_up_leaves (a :: b :: ts)). cbn [join_rounds_g map].
  change (_ :: _ :: map to_block ts) with (map to_block (a :: b :: ts)). rewrite <- pair_up_to_block. apply IH.
  pose proof (pair_up_length JNode (a :: b :: ts)). cbn [length] in *. lia.
Qed.

(* The tree the assembler builds for a non-empty block sequence [bs] (already span-merged) is
   [to_block t] for a join tree t whose leaves, left to right, are exactly [bs]. *)
Theorem join_tree_in_order bs :
  bs <> [] ->
  exists t, join_rounds (length bs) bs = [to_block t] /\ leaves t = bs.
Proof.
  intros Hne. destruct (join_rounds_tree (length bs) (map JLeaf bs)) as (t & Ht & Hl).
  - rewrite map_length. destruct bs; [congruence | cbn [length]; lia].
  - exists t. rewrite map_map, map_id in Ht. rewrite Hl, Ht. split; [reflexivity|].
    clear. induction bs; cbn; congruence.
Qed.

Inductive item := IOp (o : op) | IBlk (b : block).
Definition items_of (b : block) : list item :=
  match b with BSpan ops => map IOp ops | other => [IBlk other] end.
Definition flat_items (bs : list block) : list item := flat_map items_of bs.

Lemma merge_spans_items : forall bs cur,
  flat_items (merge_spans bs cur) =
  (match cur with Some c => map IOp c | None => [] end) ++ flat_items bs.
Proof.
  unfold flat_items. induction bs as [|b bs IH]; intros cur; cbn [merge_spans].
  - destruct cur; cbn; rewrite ?app_nil_r; reflexivity.
  - destruct b, cur; cbn [flat_map items_of app]; rewrite IH; cbn [app];
      rewrite ?map_app, <- ?app_assoc; reflexivity.
Qed.

Theorem merge_spans_keeps_ops bs : flat_items (merge_spans bs None) = flat_items bs.
Proof. apply merge_spans_items. Qed.

Definition body_block (codes : list block) (ns : list node) : block :=
  compile_body codes ns [] [].

Theorem repeat_contributes_copies codes k b c :
  c_blocks (compile_node codes (NRepeat k b) c) =
  c_blocks (flush c) ++ repeat (body_block codes b) k /\
  c_span (compile_node codes (NRepeat k b) c) = [].
Proof. split; reflexivity. Qed.

Theorem exec_contributes_callee codes p c :
  c_blocks (compile_node codes (NExec p) c) = c_blocks (flush c) ++ [nth p codes default_block].
Proof. reflexivity. Qed.

(* the locals frame: push.n fmpupdate ... push.(-n) fmpupdate brings fmp back *)
Lemma fmp_bracket fmp n : canon fmp -> fadd (fadd fmp n) (fneg n) = fmp.
Proof.
  unfold fadd, fneg, canon. intros H.
  rewrite Zplus_mod_idemp_l, Zplus_mod_idemp_r.
  replace (fmp + n + - n) with fmp by lia. apply Z.mod_small. lia.
Qed.
