(* More 64-bit procedures of the standard library over the operation lists of Gen/StdGen.v:
   multiplication (wrapping and overflowing), min, max, or, xor. *)
From Coq Require Import ZArith List Bool Lia String.
From MV Require Import Base.Field Vm.Pure Asm.Limbs Asm.Instr Asm.SpecDefs Asm.U64Instr.
Import ListNotations.
Open Scope Z_scope.

Lemma four_limbs N d s l2 l0 :
  N = ((d * TWO32 + s) * TWO32 + l2) * TWO32 + l0 ->
  0 <= s < TWO32 -> 0 <= l2 < TWO32 -> 0 <= l0 < TWO32 ->
  limbs64 (N / TWO64) = [d; s] /\ limbs64 (N mod TWO64) = [l2; l0].
Proof.
  intros E Hs H2 H0. rewrite <- (limbs64_limbs d s Hs).
  destruct (limbs64_carry N (d * TWO32 + s) l2 l0) as [-> M]; auto. rewrite E. unfold TWO64, TWO32. ring.
Qed.

(* schoolbook product of two-limb numbers: partial products with their carries, as the procedures
   accumulate them *)
Lemma mul64_limbs al ah bl bh :
  let N := (ah * TWO32 + al) * (bh * TWO32 + bl) in
  let p1 := ah * bl + al * bl / TWO32 in
  let p2 := al * bh + p1 mod TWO32 in
  let p3 := ah * bh + p2 / TWO32 in
  let sm := p1 / TWO32 + p3 mod TWO32 in
  limbs64 (N / TWO64) = [sm / TWO32 + p3 / TWO32; sm mod TWO32] /\
  limbs64 (N mod TWO64) = [p2 mod TWO32; (al * bl) mod TWO32].
Proof.
  cbv zeta. apply four_limbs; try apply mod32_bound. name_divmods. unfold TWO32 in *. lia.
Qed.


Local Open Scope string_scope.
Lemma wrapping_mul_run bh bl ah al t :
  0 <= bh < TWO32 -> 0 <= bl < TWO32 -> 0 <= ah < TWO32 -> 0 <= al < TWO32 ->
  vpure_ops (std_ops_of "u64::wrapping_mul") (bh :: bl :: ah :: al :: t) =
  POk (limbs64 (((ah * TWO32 + al) * (bh * TWO32 + bl)) mod TWO64) ++ t).
Proof.
  intros. eval_ops (std_ops_of "u64::wrapping_mul").
  run_ops. destruct (mul64_limbs al ah bl bh) as [_ E]. rewrite E. reflexivity.
Qed.
Theorem u64_wrapping_mul : instr_spec_g (std_ops_of "u64::wrapping_mul") 4 g4 no_pre
  (fun xs => limbs64 ((A64 xs * B64 xs) mod TWO64)).
Proof.
  open_instr. ops_are (std_ops_of "u64::wrapping_mul").
  rewrite wrapping_mul_run by lia. cbv [A64 B64 nz nth]. same_stack.
Qed.

Theorem u64_overflowing_mul : instr_spec_g (std_ops_of "u64::overflowing_mul") 4 g4 no_pre
  (fun xs => (limbs64 ((A64 xs * B64 xs) / TWO64) ++ limbs64 ((A64 xs * B64 xs) mod TWO64))%list).
Proof. run_to_end. destruct (mul64_limbs z2 z1 z0 z) as [E1 E2]. rewrite E1, E2. same_stack. Qed.

(* min / max: the comparison of u64::gt / u64::lt, then two CSWAPs on its flag, on which the run splits *)
Ltac min_max :=
  open_instr; run_ops; ran; cbv [A64 B64 nz nth]; unfold TWO32 in *;
  first [rewrite Z.min_l by lia | rewrite Z.min_r by lia | rewrite Z.max_l by lia | rewrite Z.max_r by lia];
  rewrite limbs64_limbs by (unfold TWO32; lia); same_stack.

Theorem u64_min : instr_spec_g (std_ops_of "u64::min") 4 g4 no_pre
  (fun xs => limbs64 (Z.min (A64 xs) (B64 xs))).
Proof. min_max. Qed.
Theorem u64_max : instr_spec_g (std_ops_of "u64::max") 4 g4 no_pre
  (fun xs => limbs64 (Z.max (A64 xs) (B64 xs))).
Proof. min_max. Qed.

Lemma lor64_limbs ah al bh bl :
  0 <= ah < TWO32 -> 0 <= al < TWO32 -> 0 <= bh < TWO32 -> 0 <= bl < TWO32 ->
  Z.lor (ah * TWO32 + al) (bh * TWO32 + bl) = Z.lor ah bh * TWO32 + Z.lor al bl.
Proof.
  intros _ Hal _. apply (bitwise_limbs Z.lor orb Z.lor_spec eq_refl). exact Hal.
Qed.
Lemma lxor64_limbs ah al bh bl :
  0 <= ah < TWO32 -> 0 <= al < TWO32 -> 0 <= bh < TWO32 -> 0 <= bl < TWO32 ->
  Z.lxor (ah * TWO32 + al) (bh * TWO32 + bl) = Z.lxor ah bh * TWO32 + Z.lxor al bl.
Proof.
  intros _ Hal _. apply (bitwise_limbs Z.lxor xorb Z.lxor_spec eq_refl). exact Hal.
Qed.

Theorem u64_or : instr_spec_g (std_ops_of "u64::or") 4 g4 no_pre
  (fun xs => [Z.lor (nz xs 0) (nz xs 2); Z.lor (nz xs 1) (nz xs 3)]).
Proof. run_to_end. rewrite !lor_field by lia. same_stack. Qed.
Theorem u64_xor : instr_spec_g (std_ops_of "u64::xor") 4 g4 no_pre
  (fun xs => [Z.lxor (nz xs 0) (nz xs 2); Z.lxor (nz xs 1) (nz xs 3)]).
Proof. run_to_end. same_stack. Qed.
