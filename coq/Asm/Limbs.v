(* Arithmetic of 32-bit limbs: what hi32, lo32, wrap64, felt_of_u64 and the field operations (Vm/Pure.v,
   Base/Field.v) compute on values that fit, bounds of quotients and carries, the borrow of a
   subtraction, flags, the order of two-limb numbers, bitwise operations on limbs, powers of two; and the
   tactics that use them: u32_small (what the u32 operations return on limbs, as integer arithmetic),
   limb_bound (0 <= t < 2^32), name_divmods (quotients and remainders by 2^32 as variables, for lia). *)
From Coq Require Import ZArith Bool Lia.
From MV Require Import Base.Field Vm.Pure.
Open Scope Z_scope.

Lemma hi32_div x : hi32 x = x / TWO32.
Proof. unfold hi32. rewrite Z.shiftr_div_pow2 by lia. reflexivity. Qed.
Lemma lo32_mod x : lo32 x = x mod TWO32.
Proof. unfold lo32. change U32MAX with (Z.ones 32). rewrite Z.land_ones by lia. reflexivity. Qed.
Lemma mod32_bound x : 0 <= x mod TWO32 < TWO32.
Proof. apply Z.mod_pos_bound. reflexivity. Qed.
Lemma div_mod32 p : p = TWO32 * (p / TWO32) + p mod TWO32 /\ 0 <= p mod TWO32 < TWO32.
Proof. split; [apply Z.div_mod; discriminate | apply mod32_bound]. Qed.
Lemma hi_lo a : hi32 a * TWO32 + lo32 a = a.
Proof. rewrite hi32_div, lo32_mod. destruct (div_mod32 a). lia. Qed.
Lemma split_div m h r : 0 <= r < m -> (h * m + r) / m = h.
Proof. intros H. symmetry. apply Z.div_unique with r; [left; exact H | ring]. Qed.
Lemma split_mod m h r : 0 <= r < m -> (h * m + r) mod m = r.
Proof. intros H. symmetry. apply Z.mod_unique with h; [left; exact H | ring]. Qed.
(* the remainder as U32DIV computes it *)
Lemma div_rem a b : a - a / b * b = a mod b.
Proof. pose proof (Z_div_mod_eq_full a b). lia. Qed.
Lemma quot_bound x : 0 <= x < TWO32 * TWO32 -> 0 <= x / TWO32 < TWO32.
Proof. unfold TWO32. intros. split; [apply Z.div_pos; lia | apply Z.div_lt_upper_bound; lia]. Qed.
Lemma hi_bound a : 0 <= a < P -> 0 <= a / TWO32 < TWO32.
Proof. intros. apply quot_bound. unfold P, TWO32 in *. lia. Qed.
Lemma div32_bound a b c : 0 <= a < TWO32 -> 0 <= b < TWO32 -> 0 <= c < TWO32 -> 0 <= (a * b + c) / TWO32 < TWO32.
Proof. intros. apply quot_bound. unfold TWO32 in *. nia. Qed.
Lemma mul_hi_le32 a p : 0 <= a < TWO32 -> 0 <= p <= TWO32 -> 0 <= a * p / TWO32 < TWO32.
Proof. intros. apply quot_bound. unfold TWO32 in *. nia. Qed.
Lemma div32_bound0 a b : 0 <= a < TWO32 -> 0 <= b < TWO32 -> 0 <= (a * b) / TWO32 < TWO32.
Proof. intros. apply mul_hi_le32; lia. Qed.
Lemma carry_bound a b : 0 <= a < TWO32 -> 0 <= b < TWO32 -> 0 <= (a + b) / TWO32 < TWO32.
Proof. intros. apply quot_bound. unfold TWO32 in *. lia. Qed.
Lemma div32_small x : 0 <= x -> (x / TWO32 =? 0) = (x <? TWO32).
Proof. intros Hx. unfold TWO32. Z.div_mod_to_equations. lia. Qed.
Lemma hi32_small x : 0 <= x -> (hi32 x =? 0) = (x <? TWO32).
Proof. rewrite hi32_div. apply div32_small. Qed.

(* sums and products of limbs are below P: neither wrap64 nor the field reduces them *)
Lemma felt_small x : 0 <= x < P -> felt_of_u64 (wrap64 x) = x.
Proof. unfold felt_of_u64, wrap64, TWO64, P. intros. rewrite (Z.mod_small x) by lia. apply Z.mod_small. lia. Qed.
Lemma madd_small a b c : 0 <= a < TWO32 -> 0 <= b < TWO32 -> 0 <= c < TWO32 ->
  felt_of_u64 (wrap64 (a * b + c)) = a * b + c.
Proof. intros. apply felt_small. unfold TWO32, P in *. nia. Qed.
Lemma mul_le32_small a p : 0 <= a < TWO32 -> 0 <= p <= TWO32 -> felt_of_u64 (wrap64 (a * p)) = a * p.
Proof. intros. apply felt_small. unfold TWO32, P in *. nia. Qed.
Lemma mul_small a b : 0 <= a < TWO32 -> 0 <= b < TWO32 -> felt_of_u64 (wrap64 (a * b)) = a * b.
Proof. intros. apply mul_le32_small; lia. Qed.
Lemma mul_pow32_small a : 0 <= a < TWO32 -> felt_of_u64 (wrap64 (a * 4294967296)) = a * 4294967296.
Proof. intros. apply mul_le32_small; unfold TWO32 in *; lia. Qed.
Lemma add3_small a b c : 0 <= a < TWO32 -> 0 <= b < TWO32 -> 0 <= c < TWO32 ->
  felt_of_u64 (wrap64 (a + b + c)) = a + b + c.
Proof. intros. apply felt_small. unfold TWO32, P in *. lia. Qed.
Lemma fadd_small a b : 0 <= a < TWO32 -> 0 <= b < TWO32 -> fadd a b = a + b.
Proof. unfold fadd, TWO32, P. intros. apply Z.mod_small. lia. Qed.
Lemma fmul_zero a b : 0 <= a < TWO32 -> 0 <= b < TWO32 -> fmul a b = 0 -> a * b = 0.
Proof. unfold fmul, TWO32, P. intros Ha Hb H. rewrite Z.mod_small in H by nia. exact H. Qed.

Lemma fadd_fneg_small a b : 0 <= b <= a -> a < P -> fadd a (fneg b) = a - b.
Proof. intros. rewrite fsub_as_add. apply Z.mod_small. lia. Qed.
Lemma fadd_fneg_wrap a b : 0 <= a < b -> b <= P -> fadd a (fneg b) = P + a - b.
Proof.
  intros. rewrite fsub_as_add. unfold fsub. replace (a - b) with (P + a - b + (-1) * P) by ring.
  rewrite Z_mod_plus_full. apply Z.mod_small. lia.
Qed.

(* a test (EQZ, EQ, the borrow of U32SUB) leaves [if c then 1 else 0]; AND, OR, NOT, CSWAP first check
   that their operands are such flags *)
Lemma flag_bin (c : bool) : negb (is_bin (if c then 1 else 0)) = false.
Proof. destruct c; reflexivity. Qed.
Lemma flag_eqb (c : bool) : ((if c then 1 else 0) =? 1) = c.
Proof. destruct c; reflexivity. Qed.
Lemma flag_eqb0 (c : bool) : ((if c then 1 else 0) =? 0) = negb c.
Proof. destruct c; reflexivity. Qed.
Lemma flag_not (c : bool) : fsub 1 (if c then 1 else 0) = if negb c then 1 else 0.
Proof. destruct c; reflexivity. Qed.
Lemma flag_bound (c : bool) : 0 <= (if c then 1 else 0) < TWO32.
Proof. destruct c; unfold TWO32; lia. Qed.
(* the three-way branch of CSWAP *)
Lemma flag_cswap {T} (c : bool) (x y e : T) :
  (if (if c then 1 else 0) =? 0 then x else if (if c then 1 else 0) =? 1 then y else e) = if c then y else x.
Proof. destruct c; reflexivity. Qed.

(* U32SUB: the low half of the wrapped difference, and its top bit as the borrow *)
Lemma sub_mod_flag a b : 0 <= a < TWO32 -> 0 <= b < TWO32 ->
  (a - b) mod TWO32 = a - b + TWO32 * (if a <? b then 1 else 0).
Proof.
  intros Ha Hb. symmetry. destruct (Z.ltb_spec a b); [apply Z.mod_unique with (-1) | apply Z.mod_unique with 0]; lia.
Qed.
Lemma borrow_bit a b : 0 <= a < TWO32 -> 0 <= b < TWO32 ->
  Z.shiftr (wrap64 (a - b)) 63 = if a <? b then 1 else 0.
Proof.
  intros Ha Hb. rewrite Z.shiftr_div_pow2 by lia. unfold wrap64, TWO64, TWO32 in *.
  destruct (Z.ltb_spec a b); Z.div_mod_to_equations; nia.
Qed.
Lemma borrow_div a b : 0 <= a < TWO32 -> 0 <= b < TWO32 ->
  Z.shiftr (wrap64 (a - b)) 63 = - ((a - b) / TWO32).
Proof.
  intros Ha Hb. rewrite borrow_bit by lia. pose proof (sub_mod_flag a b Ha Hb). destruct (div_mod32 (a - b)). unfold TWO32 in *. lia.
Qed.
Lemma lo_sub a b : 0 <= a < TWO32 -> 0 <= b < TWO32 -> lo32 (wrap64 (a - b)) = (a - b) mod TWO32.
Proof.
  intros Ha Hb. rewrite lo32_mod. unfold wrap64, TWO64, TWO32 in *.
  Z.div_mod_to_equations. nia.
Qed.
Lemma sub_zero a b : 0 <= a < TWO32 -> 0 <= b < TWO32 ->
  (lo32 (wrap64 (a - b)) =? 0) = (a =? b).
Proof.
  intros Ha Hb. rewrite lo_sub, sub_mod_flag by assumption. destruct (a <? b) eqn:L; unfold TWO32 in *; lia.
Qed.

(* U32ASSERT2, U32AND and U32XOR check that their operands are limbs *)
Lemma u32max_ok_lt z : z < TWO32 -> u32max_ok z = true.
Proof. unfold u32max_ok, U32MAX, TWO32. lia. Qed.
Lemma u32_checked z : z < TWO32 -> negb (u32max_ok z) = false.
Proof. intros H. rewrite u32max_ok_lt by exact H. reflexivity. Qed.
Lemma u32_checked_inv h : negb (u32max_ok h) = false -> h < TWO32.
Proof. unfold u32max_ok, U32MAX, TWO32. lia. Qed.

(* the order and equality of two-limb numbers are those of the pairs (hi, lo) *)
Lemma ltb_limbs ah al bh bl : 0 <= al < TWO32 -> 0 <= bl < TWO32 ->
  (ah * TWO32 + al <? bh * TWO32 + bl) = (ah <? bh) || ((ah =? bh) && (al <? bl)).
Proof. unfold TWO32. lia. Qed.
Lemma eqb_limbs ah al bh bl : 0 <= al < TWO32 -> 0 <= bl < TWO32 ->
  (ah * TWO32 + al =? bh * TWO32 + bl) = (ah =? bh) && (al =? bl).
Proof. unfold TWO32. lia. Qed.
Lemma lt_limbs a b : (a / TWO32 <? b / TWO32) || (a / TWO32 =? b / TWO32) && (a mod TWO32 <? b mod TWO32) = (a <? b).
Proof. unfold TWO32. Z.div_mod_to_equations. lia. Qed.
Lemma le_limbs a b :
  (a / TWO32 <? b / TWO32) || (a / TWO32 =? b / TWO32) && ((a mod TWO32 <? b mod TWO32) || (a mod TWO32 =? b mod TWO32)) =
  (a <=? b).
Proof. unfold TWO32. Z.div_mod_to_equations. lia. Qed.

Ltac bits := apply Z.bits_inj'; intros n Hn;
  rewrite ?Z.lor_spec, ?Z.land_spec, ?Z.ldiff_spec, ?Z.bits_0.
Ltac bits2 a b :=
  bits; match goal with |- context [Z.testbit a ?i] => destruct (Z.testbit a i), (Z.testbit b i) end; reflexivity.

Lemma land_1_mod2 x : Z.land x 1 = x mod 2.
Proof. change 1 with (Z.ones 1). rewrite Z.land_ones by lia. reflexivity. Qed.
Lemma land_one_mod2 x : 0 <= x -> Z.land (lo32 x) 1 = x mod 2.
Proof.
  intros Hx. unfold lo32. change U32MAX with (Z.ones 32). change 1 with (Z.ones 1).
  rewrite <- Z.land_assoc. change (Z.land (Z.ones 32) (Z.ones 1)) with (Z.ones 1).
  rewrite Z.land_ones by lia. reflexivity.
Qed.
Lemma add_disjoint a b : Z.land a b = 0 -> a + b = Z.lor a b.
Proof. intros H. rewrite Z.add_nocarry_lxor, Z.lxor_lor by exact H. reflexivity. Qed.
Lemma lor_plus_land a b : Z.lor a b + Z.land a b = a + b.
Proof.
  assert (E1 : a + Z.ldiff b a = Z.lor a b) by (rewrite add_disjoint by bits2 a b; bits2 a b).
  assert (E2 : Z.land a b + Z.ldiff b a = b) by (rewrite add_disjoint by bits2 a b; bits2 a b).
  lia.
Qed.
Lemma high_bits_zero x n : 0 <= x < 2 ^ 32 -> 32 <= n -> Z.testbit x n = false.
Proof. intros Hx Hn. rewrite <- (Z.mod_small x (2 ^ 32)) by exact Hx. apply Z.mod_pow2_bits_high. lia. Qed.
(* an operation that acts bit by bit and makes 0 of two 0 bits keeps 32-bit numbers *)
Lemma bitwise_u32 (f : Z -> Z -> Z) (g : bool -> bool -> bool) :
  (forall a b n, Z.testbit (f a b) n = g (Z.testbit a n) (Z.testbit b n)) -> g false false = false ->
  forall a b, 0 <= a < TWO32 -> 0 <= b < TWO32 -> 0 <= f a b < TWO32.
Proof.
  intros Hg G a b Ha Hb. replace (f a b) with (f a b mod 2 ^ 32); [apply mod32_bound|].
  apply Z.bits_inj'. intros n Hn. destruct (Z_lt_ge_dec n 32).
  - apply Z.mod_pow2_bits_low. lia.
  - rewrite Z.mod_pow2_bits_high, Hg, !high_bits_zero by (unfold TWO32 in *; lia). symmetry. exact G.
Qed.
Lemma land_u32 a b : 0 <= a < TWO32 -> 0 <= b < TWO32 -> 0 <= Z.land a b < TWO32.
Proof. apply (bitwise_u32 Z.land andb Z.land_spec eq_refl). Qed.
Lemma lor_field a b : 0 <= a < TWO32 -> 0 <= b < TWO32 ->
  fadd a (fadd b (fneg (Z.land a b))) = Z.lor a b.
Proof.
  intros Ha Hb. pose proof (lor_plus_land a b). pose proof (land_u32 a b Ha Hb).
  pose proof (bitwise_u32 Z.lor orb Z.lor_spec eq_refl a b Ha Hb).
  unfold fadd, fneg, P, TWO32 in *. Z.div_mod_to_equations. lia.
Qed.
Lemma limbs_testbit h x n : 0 <= x < 2 ^ 32 -> 0 <= n ->
  Z.testbit (h * 2 ^ 32 + x) n = if Z_lt_ge_dec n 32 then Z.testbit x n else Z.testbit h (n - 32).
Proof.
  intros Hx Hn. destruct (Z_lt_ge_dec n 32).
  - rewrite <- (Z.mod_pow2_bits_low (h * 2 ^ 32 + x) 32 n), split_mod by lia. reflexivity.
  - rewrite <- (split_div (2 ^ 32) h x Hx) at 2. rewrite Z.div_pow2_bits by lia. f_equal. lia.
Qed.
(* the value of two limbs under an operation that acts bit by bit is the operation on the limbs *)
Lemma bitwise_limbs (f : Z -> Z -> Z) (g : bool -> bool -> bool) :
  (forall a b n, Z.testbit (f a b) n = g (Z.testbit a n) (Z.testbit b n)) -> g false false = false ->
  forall ah al bh bl, 0 <= al < TWO32 -> 0 <= bl < TWO32 ->
  f (ah * TWO32 + al) (bh * TWO32 + bl) = f ah bh * TWO32 + f al bl.
Proof.
  intros Hg G ah al bh bl Hal Hbl. pose proof (bitwise_u32 f g Hg G al bl Hal Hbl).
  apply Z.bits_inj'. intros n Hn. change TWO32 with (2 ^ 32) in *. rewrite Hg, !limbs_testbit by lia.
  destruct (Z_lt_ge_dec n 32); rewrite Hg; reflexivity.
Qed.

Lemma pow2_range e n : 0 <= e <= n -> 0 < 2 ^ e <= 2 ^ n.
Proof. split; [apply Z.pow_pos_nonneg; lia | apply Z.pow_le_mono_r; lia]. Qed.
Lemma pow2_double e : 1 <= e -> 2 ^ e = 2 * 2 ^ (e - 1).
Proof. intros He. rewrite <- Z.pow_succ_r by lia. f_equal. lia. Qed.
Lemma pow2_limbs_low e : 0 <= e < 32 -> hi32 (2 ^ e) = 0 /\ lo32 (2 ^ e) = 2 ^ e.
Proof.
  intros He. pose proof (pow2_range e 31 ltac:(lia)). rewrite hi32_div, lo32_mod. unfold TWO32.
  split; [apply Z.div_small | apply Z.mod_small]; lia.
Qed.
Lemma pow2_limbs_high e : 32 <= e -> hi32 (2 ^ e) = 2 ^ (e - 32) /\ lo32 (2 ^ e) = 0.
Proof.
  intros He. rewrite hi32_div, lo32_mod. change TWO32 with (2 ^ 32).
  replace (2 ^ e) with (2 ^ (e - 32) * 2 ^ 32) by (rewrite <- Z.pow_add_r by lia; f_equal; lia).
  split; [apply Z.div_mul | apply Z.mod_mul]; lia.
Qed.
(* rotating right by n is rotating left by 32 - n: the two halves of a * 2^(32-n) *)
Lemma rotr_halves a n : 0 <= n <= 32 ->
  (a * 2 ^ (32 - n)) mod TWO32 + a * 2 ^ (32 - n) / TWO32 = a / 2 ^ n + a mod 2 ^ n * 2 ^ (32 - n).
Proof.
  intros H. pose proof (pow2_range n 32 H). pose proof (pow2_range (32 - n) 32 ltac:(lia)).
  replace TWO32 with (2 ^ n * 2 ^ (32 - n)).
  - rewrite Z.mul_mod_distr_r, Z.div_mul_cancel_r by lia. apply Z.add_comm.
  - rewrite <- Z.pow_add_r by lia. replace (n + (32 - n)) with 32 by lia. reflexivity.
Qed.

(* name every t / TWO32 and t mod TWO32 of the goal, innermost first: t = TWO32 * q + r with r a limb;
   what is left is linear *)
Ltac no_divmod t :=
  lazymatch t with
  | context [_ / TWO32] => fail
  | context [_ mod TWO32] => fail
  | _ => idtac
  end.
Ltac name_one t :=
  let q := fresh "q" in let r := fresh "r" in
  let E := fresh "E" in let B := fresh "B" in
  destruct (div_mod32 t) as [E B];
  set (q := t / TWO32) in *; set (r := t mod TWO32) in *; clearbody q r.
Ltac name_divmods :=
  repeat match goal with
         | |- context [?t / TWO32] => no_divmod t; name_one t
         | |- context [?t mod TWO32] => no_divmod t; name_one t
         end.

(* 0 <= t < TWO32 for t built from limbs by the operations whose results are limbs, or a limb of a
   canonical element *)
Ltac limb_bound :=
  first [ assumption | apply mod32_bound | apply flag_bound
        | apply hi_bound; lia
        | apply div32_bound; limb_bound | apply div32_bound0; limb_bound
        | apply carry_bound; limb_bound
        | unfold TWO32 in *; lia ].

(* What the u32 operations of the VM return on limbs, as integer arithmetic: products and sums do not
   wrap, the halves of a result are / and mod, a difference is taken mod 2^32 and its borrow has the
   form that [borrow] gives it (borrow_bit: a flag, borrow_div: a quotient).  One step rewrites an
   innermost instance, so that [limb_bound] meets operands that are already arithmetic. *)
Ltac plain t :=
  lazymatch t with
  | context [felt_of_u64 _] => fail | context [fadd _ _] => fail | context [wrap64 _] => fail
  | context [hi32 _] => fail | context [lo32 _] => fail
  | _ => idtac
  end.
Ltac u32_step borrow :=
  match goal with
  | |- context [felt_of_u64 (wrap64 (?a * ?b + ?c))] =>
      plain a; plain b; plain c; rewrite (madd_small a b c) by limb_bound
  | |- context [felt_of_u64 (wrap64 (?a * ?b))] => plain a; plain b; rewrite (mul_small a b) by limb_bound
  | |- context [felt_of_u64 (wrap64 (?a + ?b + ?c))] =>
      plain a; plain b; plain c; rewrite (add3_small a b c) by limb_bound
  | |- context [fadd ?a ?b] => plain a; plain b; rewrite (fadd_small a b) by limb_bound
  | |- context [wrap64 (?a - ?b)] =>
      plain a; plain b; progress rewrite ?(sub_zero a b), ?(lo_sub a b), ?(borrow a b) by limb_bound
  | |- context [hi32 ?x] => plain x; rewrite (hi32_div x), ?(lo32_mod x)
  | |- context [lo32 ?x] => plain x; rewrite (lo32_mod x)
  end.
Ltac u32_small := repeat u32_step borrow_bit.
