(* Shifts and rotations of std::math::u64 (u64::shl, u64::rotl) by a variable amount 0 <= n < 64.
   Each operation list is cut around the sixteen operations that make a power of two
   (Asm/Pow2Chain.v); what follows them multiplies the limbs of the operand by 2^n (shl) or by
   2^(n mod 32) (rotl, which then puts the two limbs in place with a CSwap). *)
From Coq Require Import ZArith List Lia String.
From MV Require Import Base.Field Core.Op Vm.Pure Asm.Limbs Asm.Pow2Chain Asm.Instr Asm.SpecDefs Asm.U64Instr
  Asm.U64More.
Import ListNotations.
Open Scope Z_scope.

(* operands of the shifts: [n; a_hi; a_lo] with the shift amount on top *)
Definition gshift (xs : list Z) : bool := (nz xs 0 <? 64) && u32b (nz xs 1) && u32b (nz xs 2).
Definition AS (xs : list Z) : Z := nz xs 1 * TWO32 + nz xs 2.
Definition rotl64 (a n : Z) : Z := (a * 2 ^ n) mod TWO64 + (a * 2 ^ n) / TWO64.

Lemma rotl_core al ah p q :
  0 <= al < TWO32 -> 0 <= ah < TWO32 -> 0 < p -> 0 < q -> p * q = TWO32 ->
  let l0 := (p * al) mod TWO32 in
  let x := ah * p + p * al / TWO32 in
  let h1 := x / TWO32 in
  let l1 := x mod TWO32 in
  let N := (ah * TWO32 + al) * p in
  limbs64 (N mod TWO64 + N / TWO64) = [l1; h1 + l0] /\
  limbs64 ((N * TWO32) mod TWO64 + (N * TWO32) / TWO64) = [h1 + l0; l1].
Proof.
  intros Hal Hah Hp Hq Hpq l0 x h1 l1 N.
  (* l0 is a multiple of p below p * q, and the carry h1 is below p: their sum is a limb *)
  assert (Bl0 : 0 <= l0 <= TWO32 - p).
  { unfold l0. rewrite <- Hpq, Z.mul_mod_distr_l by lia. pose proof (Z.mod_pos_bound al q Hq). nia. }
  destruct (div_mod32 (p * al)) as [E0 _]. fold l0 in E0.
  destruct (div_mod32 x) as [EX Bl1]. fold h1 l1 in EX, Bl1. unfold x in EX.
  assert (Bh1 : 0 <= h1 < p) by (unfold TWO32 in *; nia).
  assert (EN : N = h1 * TWO64 + (l1 * TWO32 + l0)) by (unfold N, TWO64, TWO32 in *; lia).
  assert (EN2 : N * TWO32 = (h1 * TWO32 + l1) * TWO64 + l0 * TWO32) by (rewrite EN; unfold TWO64, TWO32; ring).
  rewrite EN2, EN, !(split_mod TWO64), !(split_div TWO64) by (unfold TWO64, TWO32 in *; lia).
  rewrite <- Z.add_assoc, (Z.add_assoc (l0 * _)), <- Z.mul_add_distr_r, (Z.add_comm l0), !limbs64_limbs by lia. auto.
Qed.

Lemma pow2_mod32 n : 0 <= n < 64 -> 2 ^ n = 2 ^ (n mod 32) * (if 31 <? n then TWO32 else 1).
Proof.
  intros H. destruct (Z.ltb_spec 31 n).
  - change TWO32 with (2 ^ 32). rewrite <- Z.pow_add_r by (try apply Z.mod_pos_bound; lia). f_equal.
    Z.div_mod_to_equations; lia.
  - rewrite Z.mod_small by lia. lia.
Qed.

(* rotation by n is rotation by n mod 32, and the two limbs change places when n > 31 *)
Lemma rotl_limbs al ah n : 0 <= al < TWO32 -> 0 <= ah < TWO32 -> 0 <= n < 64 ->
  let p := 2 ^ (n mod 32) in
  let l0 := (p * al) mod TWO32 in
  let x := ah * p + p * al / TWO32 in
  let s := x / TWO32 + l0 in
  limbs64 (rotl64 (ah * TWO32 + al) n) = if 31 <? n then [s; x mod TWO32] else [x mod TWO32; s].
Proof.
  intros Hal Hah Hn p l0 x s.
  pose proof (Z.mod_pos_bound n 32 ltac:(lia)) as Hm.
  destruct (rotl_core al ah p (2 ^ (32 - n mod 32)) Hal Hah) as (L1 & L2).
  1,2: apply Z.pow_pos_nonneg; lia.
  { unfold p. rewrite <- Z.pow_add_r by lia. replace (n mod 32 + (32 - n mod 32)) with 32 by lia. reflexivity. }
  unfold rotl64. rewrite (pow2_mod32 n Hn). fold p.
  destruct (31 <? n); [rewrite !Z.mul_assoc; exact L2 | rewrite Z.mul_1_r; exact L1].
Qed.

(* before 2^n: the amount is reduced to n mod 32, and the borrow of 31 - n is kept as the flag of CSwap *)
Lemma rotl_amount n a b l : 0 <= n < TWO32 ->
  vpure_ops [Push 31; Dup1; U32sub; Swap; Drop; MovDn3; Push 31; U32and] (n :: a :: b :: l) =
  POk (n mod 32 :: a :: b :: (if 31 <? n then 1 else 0) :: l).
Proof.
  intros Hn. run_view. rewrite !u32max_ok_lt, borrow_bit by (unfold TWO32 in *; lia).
  change (Z.land n 31) with (Z.land n (Z.ones 5)). rewrite Z.land_ones by lia. reflexivity.
Qed.

Local Open Scope string_scope.

(* after 2^n: U32split, then the operations of u64::wrapping_mul *)
Theorem u64_shl : instr_spec_g (std_ops_of "u64::shl") 3 gshift no_pre
  (fun xs => limbs64 ((AS xs * 2 ^ (nz xs 0)) mod TWO64)).
Proof.
  open_instr. cbv [AS nz nth].
  ops_are (pow2_ops ++ [U32split] ++ std_ops_of "u64::wrapping_mul")%list.
  rewrite pow2_then, vpure_ops_app by lia. change (vpure_ops [_] (?p :: ?s)) with (POk (hi32 p :: lo32 p :: s)). cbv iota.
  pose proof (pow2_range z 63 ltac:(lia)).
  rewrite wrapping_mul_run, hi_lo
    by first [lia | rewrite lo32_mod; apply mod32_bound | rewrite hi32_div; apply hi_bound; unfold P; lia].
  same_stack.
Qed.

Theorem u64_rotl : instr_spec_g (std_ops_of "u64::rotl") 3 gshift no_pre
  (fun xs => limbs64 (rotl64 (AS xs) (nz xs 0))).
Proof.
  open_instr. cbv [AS nz nth].
  ops_are ([Push 31; Dup1; U32sub; Swap; Drop; MovDn3; Push 31; U32and] ++ pow2_ops ++
           [Dup0; MovUp3; U32mul; MovUp3; MovUp3; U32madd; MovUp2; Add; Swap; MovUp2; CSwap])%list.
  pose proof (Z.mod_pos_bound z 32 ltac:(lia)) as Hm.
  rewrite vpure_ops_app, rotl_amount by (unfold TWO32; lia). cbv iota. rewrite pow2_then by lia.
  rewrite (rotl_limbs z1 z0 z) by lia. cbv zeta. pose proof (pow2_range (z mod 32) 31 ltac:(lia)).
  run_ops; same_stack.
Qed.
