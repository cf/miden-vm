(* The 256-bit procedures of the standard library (std::math::u256) over the operation lists of
   Gen/StdGen.v: addition and subtraction modulo 2^256 (carry and borrow chains over eight limbs), limb-wise
   AND/OR/XOR, zero and equality tests.  Operands: b at positions 0..7, a at positions 8..15, most significant limb first. *)
From Coq Require Import ZArith List Bool Lia String.
From MV Require Import Base.Field Vm.PureProps Asm.Limbs Asm.Instr Asm.SpecDefs Asm.U64Instr.
Import ListNotations.
Open Scope Z_scope.

(* little-endian value of a list of 32-bit limbs *)
Fixpoint val (rs : list Z) : Z := match rs with [] => 0 | r :: t => r + TWO32 * val t end.
Definition limb (r : Z) : Prop := 0 <= r < TWO32.

Lemma val_bound rs : Forall limb rs -> 0 <= val rs < TWO32 ^ Z.of_nat (List.length rs).
Proof.
  induction 1 as [|r t Hr Ht IH]; [cbn; lia|].
  cbn [val List.length]. rewrite Nat2Z.inj_succ, Z.pow_succ_r by lia. unfold limb in Hr. unfold TWO32 in *. lia.
Qed.

Lemma val_limb rs : Forall limb rs -> forall j, (val rs / TWO32 ^ Z.of_nat j) mod TWO32 = nth j rs 0.
Proof.
  induction 1 as [|r t Hr Ht IH]; intros j; cbn [val].
  - rewrite Zdiv_0_l. destruct j; reflexivity.
  - rewrite Z.add_comm, Z.mul_comm. destruct j as [|j]; cbn [nth].
    + change (TWO32 ^ Z.of_nat 0) with 1. rewrite Z.div_1_r. apply split_mod, Hr.
    + rewrite Nat2Z.inj_succ, Z.pow_succ_r, <- Z.div_div, split_div
        by first [exact Hr | lia | unfold TWO32; lia | apply Z.pow_pos_nonneg; [reflexivity | lia]].
      apply IH.
Qed.

(* most significant limb first, as the 256-bit procedures return them *)
Definition limbs256 (v : Z) : list Z :=
  map (fun k => (v / TWO32 ^ Z.of_nat (7 - k)) mod TWO32) (seq 0 8).

Lemma limbs256_val r0 r1 r2 r3 r4 r5 r6 r7 c :
  limb r0 -> limb r1 -> limb r2 -> limb r3 -> limb r4 -> limb r5 -> limb r6 -> limb r7 ->
  limbs256 ((val [r0; r1; r2; r3; r4; r5; r6; r7] + c * 2 ^ 256) mod 2 ^ 256) = [r7; r6; r5; r4; r3; r2; r1; r0].
Proof.
  intros L0 L1 L2 L3 L4 L5 L6 L7.
  assert (F : Forall limb [r0; r1; r2; r3; r4; r5; r6; r7]) by (repeat (constructor; [assumption|]); constructor).
  pose proof (val_bound _ F) as B. cbn [List.length] in B.
  replace (TWO32 ^ Z.of_nat 8) with (2 ^ 256) in B by reflexivity.
  rewrite Z_mod_plus_full, Z.mod_small by exact B.
  unfold limbs256. cbn [seq map Nat.sub]. rewrite !(val_limb _ F). reflexivity.
Qed.

Definition g16 (xs : list Z) : bool := forallb u32b (firstn 16 xs).
(* eight limbs, most significant first, from position i of the operand list *)
Definition V256 (xs : list Z) (i : nat) : Z :=
  val [nz xs (i + 7); nz xs (i + 6); nz xs (i + 5); nz xs (i + 4); nz xs (i + 3); nz xs (i + 2); nz xs (i + 1); nz xs i].

Lemma stack_eq_tail3 (l : list Z) : stack_eq (nth 0 l 0 :: nth 1 l 0 :: nth 2 l 0 :: skipn 3 l) l.
Proof. intros i. destruct i as [|[|[|i]]]; try reflexivity. cbn [nth]. rewrite nth_skipn_z. reflexivity. Qed.

(* Along a carry chain the terms double with every limb: each quotient and remainder is named as soon
   as it is arithmetic.  The borrows are wanted as quotients, which [name_divmods] relates to the
   remainders. *)
Ltac chain := run_view; ran; cbv [V256 nz]; cbn [nth Nat.add firstn];
  repeat (u32_step borrow_div; name_divmods).
(* the operands' value is that of the eight result limbs a7 .. a0 plus c * 2^256; what then remains below
   the result is the rest of the stack *)
Ltac chain_value v c :=
  match goal with
  | |- stack_eq (?a7 :: ?a6 :: ?a5 :: ?a4 :: ?a3 :: ?a2 :: ?a1 :: ?a0 :: _) _ =>
      replace v with (val [a0; a1; a2; a3; a4; a5; a6; a7] + c * 2 ^ 256)
        by (cbn [val]; change (2 ^ 256) with (TWO32 * TWO32 * TWO32 * TWO32 * TWO32 * TWO32 * TWO32 * TWO32);
            unfold TWO32 in *; lia);
      rewrite limbs256_val by (unfold limb; assumption)
  end;
  cbn [app]; repeat (apply stack_eq_cons; [reflexivity|]); apply stack_eq_tail3.

Local Open Scope string_scope.
Theorem u256_add : instr_spec_g (std_ops_of "u256::add_unsafe") 16 g16 no_pre
  (fun xs => limbs256 ((V256 xs 8 + V256 xs 0) mod 2 ^ 256)).
Proof.
  open_instr. chain.
  match goal with E : _ = TWO32 * ?c + ?a7 |- stack_eq (?a7 :: _) _ =>
    chain_value (val [z14; z13; z12; z11; z10; z9; z8; z7] + val [z6; z5; z4; z3; z2; z1; z0; z]) c
  end.
Qed.

(* Each limb is a_i - (b_i + borrow) in two steps: the sum, with remainder rt and carry qt, then the
   difference, with remainder a_i' and quotient qs = - borrow; beyond the top limb they leave qs - qt. *)
Theorem u256_sub : instr_spec_g (std_ops_of "u256::sub_unsafe") 16 g16 no_pre
  (fun xs => limbs256 ((V256 xs 8 - V256 xs 0) mod 2 ^ 256)).
Proof.
  open_instr. chain.
  match goal with Es : _ - ?rt = TWO32 * ?qs + ?a7, Et : _ = TWO32 * ?qt + ?rt |- stack_eq (?a7 :: _) _ =>
    chain_value (val [z14; z13; z12; z11; z10; z9; z8; z7] - val [z6; z5; z4; z3; z2; z1; z0; z]) (qs - qt)
  end.
Qed.

(* limb-wise bitwise operations; operands b = positions 0..7, a = positions 8..15 *)
Definition limbwise (f : Z -> Z -> Z) (xs : list Z) : list Z :=
  map (fun k => f (nz xs k) (nz xs (8 + k))) (seq 0 8).

Ltac limbwise_proof comm :=
  open_instr; run_ops; ran; cbv [limbwise map seq nz]; cbn [nth Nat.add app];
  rewrite ?lor_field by lia; close_leaf ltac:(apply comm).

Theorem u256_and : instr_spec_g (std_ops_of "u256::and") 16 g16 no_pre (limbwise Z.land).
Proof. limbwise_proof Z.land_comm. Qed.
Theorem u256_xor : instr_spec_g (std_ops_of "u256::xor") 16 g16 no_pre (limbwise Z.lxor).
Proof. limbwise_proof Z.lxor_comm. Qed.
Theorem u256_or : instr_spec_g (std_ops_of "u256::or") 16 g16 no_pre (limbwise Z.lor).
Proof. limbwise_proof Z.lor_comm. Qed.

(* the procedure's conjunction of the eight tests is that of the specification, differently bracketed *)
Ltac flags_proof :=
  open_instr; run_ops; ran; cbv [bool01 forallb seq nz]; cbn [nth Nat.add app]; apply stack_eq_cons; [|same_stack];
  match goal with |- (if ?c then _ else _) = (if ?d then _ else _) => replace c with d; [reflexivity|] end;
  apply eq_iff_eq_true; rewrite andb_true_r, !andb_true_iff; tauto.

Theorem u256_iszero : instr_spec_g (std_ops_of "u256::iszero_unsafe") 8 (fun _ => true) no_pre
  (fun xs => [bool01 (forallb (fun k => nz xs k =? 0)%Z (seq 0 8))]).
Proof. flags_proof. Qed.
Theorem u256_eq : instr_spec_g (std_ops_of "u256::eq_unsafe") 16 (fun _ => true) no_pre
  (fun xs => [bool01 (forallb (fun k => nz xs k =? nz xs (8 + k))%Z (seq 0 8))]).
Proof. flags_proof. Qed.
