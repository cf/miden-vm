(* Instructions with an immediate operand from an unbounded domain: the assembler's expansion as
   a function of the immediate (transcribed from assembly/src/assembler/instruction/*.rs), checked
   against the real assembler on the generated grid, and for push, add, sub, mul, div and eq proved
   against the documented effect for EVERY immediate. *)
From Coq Require Import ZArith List Bool Lia String.
From MV Require Import Base.Field Core.Op Core.Rpo Gen.AsmGen Asm.Limbs Asm.Instr Asm.SpecDefs.
Import ListNotations.
Open Scope Z_scope.

Definition opt_ops_eqb (a b : option (list op)) : bool :=
  match a, b with
  | Some x, Some y => (List.length x =? List.length y)%nat &&
                      forallb (fun p => (opcode (fst p) =? opcode (snd p)) &&
                                        match imm_value (fst p), imm_value (snd p) with
                                        | Some u, Some w => u =? w
                                        | None, None => true
                                        | _, _ => false
                                        end) (combine x y)
  | None, None => true
  | _, _ => false
  end.

Definition row (name : string) (v : Z) : option (list op) :=
  match lookup (name ++ "." ++ zstr v)%string asm_table with
  | Some r => r
  | None => Some []    (* not in the generated grid *)
  end.
Definition in_grid (name : string) (v : Z) : bool :=
  match lookup (name ++ "." ++ zstr v)%string asm_table with Some _ => true | None => false end.

Definition felt_grid : list Z :=
  [0; 1; 2; 3; 7; 255; 65536; 2147483648; 4294967295; 4294967296; 18446744069414584320;
   4294967297; 1234567891011].
Definition u32_grid : list Z := [0; 1; 2; 3; 7; 255; 65536; 2147483648; 4294967295].

Definition check (name : string) (c : Z -> option (list op)) (grid : list Z) : bool :=
  forallb (fun v => in_grid name v && opt_ops_eqb (c v) (row name v)) grid.

Lemma check_ext name c c' grid : (forall v, c v = c' v) -> check name c grid = check name c' grid.
Proof.
  intros E. unfold check. induction grid as [|v g IH]; [reflexivity|]. cbn [forallb]. rewrite IH, E. reflexivity.
Qed.

(* the transcription agrees with the real assembler on the whole generated grid *)
Lemma imm_table_agrees :
  check "add" (fun v => Some (c_add v)) felt_grid &&
  check "sub" (fun v => Some (c_sub v)) felt_grid &&
  check "mul" (fun v => Some (c_mul v)) felt_grid &&
  check "div" c_div felt_grid &&
  check "eq" (fun v => Some (c_eq v)) felt_grid &&
  check "neq" (fun v => Some (c_neq v)) felt_grid &&
  check "push" (fun v => Some (c_push v)) felt_grid &&
  check "exp" (fun v => Some (c_exp v)) felt_grid &&
  check "u32wrapping_add" (fun v => Some (c_u32 U32add true v)) u32_grid &&
  check "u32overflowing_add" (fun v => Some (c_u32 U32add false v)) u32_grid &&
  check "u32wrapping_sub" (fun v => Some (c_u32 U32sub true v)) u32_grid &&
  check "u32overflowing_sub" (fun v => Some (c_u32 U32sub false v)) u32_grid &&
  check "u32wrapping_mul" (fun v => Some (c_u32 U32mul true v)) u32_grid &&
  check "u32overflowing_mul" (fun v => Some (c_u32 U32mul false v)) u32_grid &&
  check "u32div" (c_u32div [Drop]) u32_grid &&
  check "u32mod" (c_u32div [Swap; Drop]) u32_grid &&
  check "u32divmod" (c_u32div []) u32_grid = true.
Proof.
  (* the eleven inverses of the div rows are powers with a 64-bit exponent: they are evaluated with the
     reduction by masks and shifts (gpow, Core/Rpo.v), which the checker's machine runs several times faster *)
  rewrite (check_ext "div" c_div
             (fun v => if v =? 0 then None else if v =? 1 then Some [Noop] else Some [Push (gpow v 18446744069414584319); Mul])).
  - vm_compute. reflexivity.
  - intros v. unfold c_div, finv. rewrite gpow_fpow. reflexivity.
Qed.

Lemma instr_spec_ext ops k pre f g :
  (forall xs, f xs = g xs) -> instr_spec ops k pre f -> instr_spec ops k pre g.
Proof.
  intros E H l Hl Hc. specialize (H l Hl Hc). destruct (pre (firstn k l)); [exact H|].
  rewrite <- E. exact H.
Qed.

Theorem push_imm_ok : forall v, canon v -> instr_spec (c_push v) 0 no_pre (fun _ => [v]).
Proof.
  intros v Hv. unfold c_push, push_felt.
  destruct (Z.eqb_spec v 0) as [->|_]; [solve_instr idtac|].
  destruct (Z.eqb_spec v 1) as [->|_]; [solve_instr idtac|].
  solve_instr idtac.
Qed.

Lemma fadd_1_1 x : fadd (fadd x 1) 1 = fadd x 2.
Proof. unfold fadd. rewrite Zplus_mod_idemp_l. f_equal. lia. Qed.

Theorem add_imm_ok : forall v, canon v ->
  instr_spec (c_add v) 1 no_pre (fun xs => [fadd (nz xs 0) v]).
Proof.
  intros v Hv. unfold c_add.
  destruct (Z.eqb_spec v 0) as [->|_]; [solve_instr ltac:(symmetry; apply fadd_0_r; assumption)|].
  destruct (Z.eqb_spec v 1) as [->|_]; [solve_instr idtac|].
  destruct (Z.eqb_spec v 2) as [->|_]; [solve_instr ltac:(apply fadd_1_1)|].
  solve_instr idtac.
Qed.

Theorem sub_imm_ok : forall v, canon v ->
  instr_spec (c_sub v) 1 no_pre (fun xs => [fsub (nz xs 0) v]).
Proof.
  intros v Hv. unfold c_sub.
  destruct (Z.eqb_spec v 0) as [->|_]; [solve_instr ltac:(unfold fsub, canon in *; rewrite Z.sub_0_r; symmetry; apply Z.mod_small; lia)|].
  solve_instr ltac:(apply fsub_as_add).
Qed.

Theorem mul_imm_ok : forall v, canon v ->
  instr_spec (c_mul v) 1 no_pre (fun xs => [fmul (nz xs 0) v]).
Proof.
  intros v Hv. unfold c_mul.
  destruct (Z.eqb_spec v 0) as [->|_]; [solve_instr ltac:(unfold fmul; rewrite Z.mul_0_r; reflexivity)|].
  destruct (Z.eqb_spec v 1) as [->|_]; [solve_instr ltac:(symmetry; apply fmul_1_r; assumption)|].
  solve_instr idtac.
Qed.

Theorem div_imm_ok : forall v ops, canon v -> c_div v = Some ops ->
  instr_spec ops 1 no_pre (fun xs => [fmul (nz xs 0) (finv v)]).
Proof.
  intros v ops Hv. unfold c_div.
  destruct (v =? 0); [discriminate|]. destruct (Z.eqb_spec v 1) as [->|_]; intros H; injection H as <-.
  - solve_instr ltac:(symmetry; apply fmul_1_r; assumption).
  - solve_instr idtac.
Qed.
Theorem div_imm_zero_rejected : c_div 0 = None.
Proof. reflexivity. Qed.

Theorem eq_imm_ok : forall v, canon v ->
  instr_spec (c_eq v) 1 no_pre (fun xs => [if nz xs 0 =? v then 1 else 0]).
Proof.
  intros v Hv. unfold c_eq.
  destruct (Z.eqb_spec v 0) as [->|_]; solve_instr idtac.
Qed.
