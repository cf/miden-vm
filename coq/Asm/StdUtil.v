(* Specification-level models of the standard library's stack and memory utilities (stdlib/asm/sys.masm,
   mem.masm), written after the structure of the procedures, with the contracts they keep.  The
   models are compared with the real procedures by the C18 check. *)
From Coq Require Import ZArith List Lia.
Import ListNotations.
Open Scope Z_scope.

(* sys::truncate_stack.  The stack never gets shallower than 16: dropping refills with zeros from below *)
Definition pad16 (l : list Z) : list Z := l ++ repeat 0 (16 - length l).
Definition dropw (l : list Z) : list Z := pad16 (skipn 4 l).

(* save the top 16 in locals, drop them, drop words while the depth is not 16, restore *)
Fixpoint drop_until_16 (fuel : nat) (l : list Z) : list Z :=
  match fuel with
  | O => l
  | S f => if Nat.eqb (length l) 16 then l else drop_until_16 f (dropw l)
  end.

Definition truncate_stack (l : list Z) : list Z :=
  let saved := firstn 16 l in
  let rest := dropw (dropw (dropw (dropw l))) in
  let rest := drop_until_16 (length l) rest in
  saved ++ skipn 16 rest.

Lemma pad16_length l : (16 <= length (pad16 l))%nat.
Proof. unfold pad16. rewrite app_length, repeat_length. lia. Qed.

Lemma dropw_length l : (16 <= length l)%nat -> length (dropw l) = Nat.max 16 (length l - 4).
Proof. intros H. unfold dropw, pad16. rewrite app_length, repeat_length, skipn_length. lia. Qed.

Lemma drop_until_16_length : forall fuel l,
  (16 <= length l)%nat -> (length l - 16 <= 4 * fuel)%nat -> length (drop_until_16 fuel l) = 16%nat.
Proof.
  induction fuel as [|f IH]; intros l Hl Hf; cbn [drop_until_16].
  - lia.
  - destruct (Nat.eqb_spec (length l) 16) as [E|E]; [exact E|].
    apply IH; rewrite dropw_length by exact Hl; lia.
Qed.

Lemma dropw_iter_length n l :
  (16 <= length l)%nat -> (16 <= length (Nat.iter n dropw l) <= length l)%nat.
Proof. intros H. induction n as [|n IH]; simpl; [|rewrite dropw_length]; lia. Qed.

(* C18: for every stack of depth >= 16 the result is exactly the original top 16 elements *)
Theorem truncate_stack_spec : forall l, (16 <= length l)%nat -> truncate_stack l = firstn 16 l.
Proof.
  intros l Hl. unfold truncate_stack. pose proof (dropw_iter_length 4 l Hl) as Hr. simpl in Hr.
  rewrite skipn_all2, app_nil_r; [reflexivity|]. rewrite drop_until_16_length; lia.
Qed.

(* mem::memcopy *)
Definition word := list Z.
Definition memory := Z -> word.
Definition upd (m : memory) (a : Z) (w : word) : memory := fun x => if x =? a then w else m x.

(* n words, ascending, one read then one write per step *)
Fixpoint memcopy (n : nat) (r w : Z) (m : memory) : memory :=
  match n with
  | O => m
  | S n' => memcopy n' (r + 1) (w + 1) (upd m w (m r))
  end.

Lemma memcopy_outside : forall n r w m x, (x < w \/ w + Z.of_nat n <= x) -> memcopy n r w m x = m x.
Proof.
  induction n as [|n IH]; intros r w m x Hx; cbn [memcopy]; [reflexivity|].
  rewrite IH by lia. unfold upd. destruct (Z.eqb_spec x w); [lia | reflexivity].
Qed.

(* C18: when the destination does not start inside the part of the source still to be read
   (write_ptr <= read_ptr, or the ranges are disjoint) every destination word is the source word,
   and nothing outside the destination changes; a zero length changes nothing *)
Theorem memcopy_spec : forall n r w m,
  (w <= r \/ r + Z.of_nat n <= w) ->
  (forall i, 0 <= i < Z.of_nat n -> memcopy n r w m (w + i) = m (r + i)) /\
  (forall x, (x < w \/ w + Z.of_nat n <= x) -> memcopy n r w m x = m x).
Proof.
  intros n r w m H. split; [|apply memcopy_outside].
  revert r w m H. induction n as [|n IH]; intros r w m H i Hi; [lia|].
  cbn [memcopy]. destruct (Z.eq_dec i 0) as [->|Hi0].
  - rewrite !Z.add_0_r, memcopy_outside by lia. unfold upd. rewrite Z.eqb_refl. reflexivity.
  - replace (w + i) with (w + 1 + (i - 1)) by lia. rewrite IH by lia. unfold upd.
    destruct (Z.eqb_spec (r + 1 + (i - 1)) w); [lia|]. f_equal. lia.
Qed.

Theorem memcopy_zero : forall r w m, memcopy 0 r w m = m.
Proof. reflexivity. Qed.
