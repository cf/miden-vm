(* 64-bit division of the standard library (u64::div, mod, divmod): whatever quotient and remainder
   limbs the host supplies, a completed run leaves the true quotient / remainder, and no hints let a
   run with a zero divisor complete. *)
From Coq Require Import ZArith List Bool Lia String.
From MV Require Import Base.Field Core.Op Vm.Pure Vm.PureProps Asm.Limbs Asm.Instr Asm.SpecDefs Asm.HintDefs
  Asm.HintInstr Asm.U64Instr.
Import ListNotations.
Open Scope Z_scope.

(* What the procedures check of the hinted q and r: the schoolbook product b * q plus r, limb by limb,
   with every carry beyond 64 bits required to vanish, equals a. *)
Lemma div_check ah al bh bl qh ql rh rl :
  let p0 := bl * ql in let p1 := bh * ql + p0 / TWO32 in let p2 := bl * qh + p1 mod TWO32 in
  let s0 := rl + p0 mod TWO32 in let s1 := s0 / TWO32 + p2 mod TWO32 + rh in
  p1 / TWO32 = 0 -> p2 / TWO32 = 0 -> bh * qh = 0 -> s1 / TWO32 = 0 -> s1 mod TWO32 = ah -> s0 mod TWO32 = al ->
  ah * TWO32 + al = (bh * TWO32 + bl) * (qh * TWO32 + ql) + (rh * TWO32 + rl).
Proof. cbv zeta. name_divmods. unfold TWO32 in *. intros. lia. Qed.

(* a zero divisor: no choice of hints lets the run complete *)
Definition view_rejects (ops : list op) (k : nat) (guard : list Z -> bool) (bad : list Z -> Prop) : Prop :=
  forall l, (16 <= List.length l)%nat -> all_canon l -> guard (firstn k l) = true -> bad (firstn k l) ->
  exists e, vpure_ops ops l = PErr e.

(* Every completed run leaves a quotient and a remainder of its operands a and b, r < b, laid out by
   [out]: they are then the true ones, and for b = 0 there are none. *)
Definition div_post (ops : list op) (out : Z -> Z -> list Z) : Prop :=
  view_post ops (fun l => g4 (firstn 4 l)) (fun l lv => exists q r,
    0 <= r < B64 (firstn 4 l) /\ A64 (firstn 4 l) = B64 (firstn 4 l) * q + r /\ stack_eq lv (out q r ++ skipn 4 l)).

(* on the real stack, for every list of four hints *)
Lemma div_hint_sound ops out : on_elems 4 (fun hs => div_post (hinted ops hs) out) ->
  has_sdepth ops = false -> count_advpop ops = 4%nat ->
  hint_sound ops 4 g4 (fun xs => out (A64 xs / B64 xs) (A64 xs mod B64 xs)).
Proof.
  intros H Hs Hc. apply sound_of_view; [exact Hs|]. rewrite Hc.
  intros h1 C1 h2 C2 h3 C3 h4 C4 l Hl Hcan Hg. specialize (H h1 C1 h2 C2 h3 C3 h4 C4 l Hl Hcan Hg).
  destruct (vpure_ops _ l); [|exact I]. destruct H as (q & r & Hr & E & S).
  rewrite <- (Z.div_unique _ _ q r), <- (Z.mod_unique _ _ q r); auto.
Qed.
Lemma div_zero ops out : on_elems 4 (fun hs => div_post (hinted ops hs) out) ->
  forall h1 h2 h3 h4, canon h1 -> canon h2 -> canon h3 -> canon h4 ->
  view_rejects (hinted ops [h1; h2; h3; h4]) 4 g4 (fun xs => B64 xs = 0).
Proof.
  intros H h1 h2 h3 h4 C1 C2 C3 C4 l Hl Hc Hg Hb. specialize (H h1 C1 h2 C2 h3 C3 h4 C4 l Hl Hc Hg).
  destruct (vpure_ops _ l); [|eexists; reflexivity]. destruct H as (q & r & Hr & _). lia.
Qed.

(* A check that passed, as a fact: a limb (U32ASSERT2), an equation (ASSERT on EQZ / EQ; a product of
   limbs that is zero in the field is zero); the comparison of r with b stays as it is, lia reads it.
   A check that failed ends the run. *)
Ltac check_fact H :=
  first [ apply u32_checked_inv in H
        | apply Z.eqb_eq in H; try (apply fmul_zero in H; [|lia..])
        | done_true
        | idtac ].
(* the hints become limbs only by passing their check: each test the run splits leaves its fact at once *)
Ltac checks := run_with ltac:(fun c => let H := fresh "K" in destruct c eqn:H; check_fact H).

(* the run of procedure [nm] with quotient q and remainder r made of the hints *)
Ltac div_run nm :=
  eval_ops (std_ops_of nm); cbv [on_elems hinted]; intros h1 C1 h2 C2 h3 C3 h4 C4; name_top 4%nat;
  match goal with Hg : g4 _ = true |- _ => cbv [g4 nz nth firstn app] in Hg end; guard_facts;
  checks; lazymatch goal with |- ex _ => idtac end; exists (h2 * TWO32 + h1), (h4 * TWO32 + h3); cbv [A64 B64 nz nth firstn];
  split; [unfold TWO32 in *; lia | split; [apply div_check; assumption|]];
  rewrite ?limbs64_limbs by lia; same_stack.

Local Open Scope string_scope.
Lemma u64_div_run : on_elems 4 (fun hs => div_post (hinted (std_ops_of "u64::div") hs) (fun q _ => limbs64 q)).
Proof. div_run "u64::div". Qed.
Lemma u64_mod_run : on_elems 4 (fun hs => div_post (hinted (std_ops_of "u64::mod") hs) (fun _ r => limbs64 r)).
Proof. div_run "u64::mod". Qed.
Lemma u64_divmod_run :
  on_elems 4 (fun hs => div_post (hinted (std_ops_of "u64::divmod") hs) (fun q r => (limbs64 r ++ limbs64 q)%list)).
Proof. div_run "u64::divmod". Qed.

Theorem u64_div_zero : forall h1 h2 h3 h4, canon h1 -> canon h2 -> canon h3 -> canon h4 ->
  view_rejects (hinted (std_ops_of "u64::div") [h1; h2; h3; h4]) 4 g4 (fun xs => B64 xs = 0).
Proof. exact (div_zero _ _ u64_div_run). Qed.
Theorem u64_mod_zero : forall h1 h2 h3 h4, canon h1 -> canon h2 -> canon h3 -> canon h4 ->
  view_rejects (hinted (std_ops_of "u64::mod") [h1; h2; h3; h4]) 4 g4 (fun xs => B64 xs = 0).
Proof. exact (div_zero _ _ u64_mod_run). Qed.
Theorem u64_divmod_zero : forall h1 h2 h3 h4, canon h1 -> canon h2 -> canon h3 -> canon h4 ->
  view_rejects (hinted (std_ops_of "u64::divmod") [h1; h2; h3; h4]) 4 g4 (fun xs => B64 xs = 0).
Proof. exact (div_zero _ _ u64_divmod_run). Qed.

Theorem u64_div_hint_sound : hint_sound (std_ops_of "u64::div") 4 g4 (fun xs => limbs64 (A64 xs / B64 xs)).
Proof. exact (div_hint_sound _ _ u64_div_run eq_refl eq_refl). Qed.
Theorem u64_mod_hint_sound : hint_sound (std_ops_of "u64::mod") 4 g4 (fun xs => limbs64 (A64 xs mod B64 xs)).
Proof. exact (div_hint_sound _ _ u64_mod_run eq_refl eq_refl). Qed.
Theorem u64_divmod_hint_sound : hint_sound (std_ops_of "u64::divmod") 4 g4
  (fun xs => (limbs64 (A64 xs mod B64 xs) ++ limbs64 (A64 xs / B64 xs))%list).
Proof. exact (div_hint_sound _ _ u64_divmod_run eq_refl eq_refl). Qed.
