(* Field, comparison, boolean, conditional and assertion instructions against their documented
   effect and documented failures (docs/src/user_docs/assembly/field_operations.md,
   stack_manipulation.md), for every stack of canonical elements. *)
From Coq Require Import ZArith List Bool String.
From MV Require Import Base.Field Vm.Pure Asm.Limbs Asm.Instr Asm.SpecDefs.
Import ListNotations.
Open Scope Z_scope.

Lemma is_bin_cases v : is_bin v = true -> v = 0 \/ v = 1.
Proof. unfold is_bin. rewrite orb_true_iff, !Z.eqb_eq. tauto. Qed.

Theorem add_ok : instr_spec (ops_of "add") 2 no_pre (fun xs => [fadd (nz xs 1) (nz xs 0)]).
Proof. solve_instr idtac. Qed.
Theorem sub_ok : instr_spec (ops_of "sub") 2 no_pre (fun xs => [fsub (nz xs 1) (nz xs 0)]).
Proof. solve_instr ltac:(apply fsub_as_add). Qed.
Theorem mul_ok : instr_spec (ops_of "mul") 2 no_pre (fun xs => [fmul (nz xs 1) (nz xs 0)]).
Proof. solve_instr idtac. Qed.
Theorem div_ok : instr_spec (ops_of "div") 2
    (fun xs => if nz xs 0 =? 0 then Some PDivZero else None)
    (fun xs => [fmul (nz xs 1) (finv (nz xs 0))]).
Proof. solve_instr idtac. Qed.
Theorem neg_ok : instr_spec (ops_of "neg") 1 no_pre (fun xs => [fneg (nz xs 0)]).
Proof. solve_instr idtac. Qed.
Theorem inv_ok : instr_spec (ops_of "inv") 1
    (fun xs => if nz xs 0 =? 0 then Some PDivZero else None) (fun xs => [finv (nz xs 0)]).
Proof. solve_instr idtac. Qed.

Theorem not_ok : instr_spec (ops_of "not") 1 (fun xs => bin_or (nz xs 0) None)
    (fun xs => [fsub 1 (nz xs 0)]).
Proof. solve_instr idtac. Qed.
Theorem and_ok : instr_spec (ops_of "and") 2 (fun xs => bin_or (nz xs 0) (bin_or (nz xs 1) None))
    (fun xs => [if (nz xs 1 =? 1) && (nz xs 0 =? 1) then 1 else 0]).
Proof. solve_instr idtac. Qed.
Theorem or_ok : instr_spec (ops_of "or") 2 (fun xs => bin_or (nz xs 0) (bin_or (nz xs 1) None))
    (fun xs => [if (nz xs 1 =? 1) || (nz xs 0 =? 1) then 1 else 0]).
Proof. solve_instr idtac. Qed.

Theorem eq_ok : instr_spec (ops_of "eq") 2 no_pre (fun xs => [if nz xs 1 =? nz xs 0 then 1 else 0]).
Proof. solve_instr idtac. Qed.

Theorem assert_ok : instr_spec (ops_of "assert") 1
    (fun xs => if nz xs 0 =? 1 then None else Some (PAssert 0)) (fun _ => []).
Proof. solve_instr idtac. Qed.
Theorem assertz_ok : instr_spec (ops_of "assertz") 1
    (fun xs => if nz xs 0 =? 0 then None else Some (PAssert 0)) (fun _ => []).
Proof. solve_instr idtac. Qed.
Theorem assert_eq_ok : instr_spec (ops_of "assert_eq") 2
    (fun xs => if nz xs 1 =? nz xs 0 then None else Some (PAssert 0)) (fun _ => []).
Proof. solve_instr idtac. Qed.

Theorem cswap_ok : instr_spec (ops_of "cswap") 3 (fun xs => cond_pre (nz xs 0))
    (fun xs => if nz xs 0 =? 0 then [nz xs 1; nz xs 2] else [nz xs 2; nz xs 1]).
Proof. solve_instr idtac. Qed.
Theorem cdrop_ok : instr_spec (ops_of "cdrop") 3 (fun xs => cond_pre (nz xs 0))
    (fun xs => if nz xs 0 =? 0 then [nz xs 2] else [nz xs 1]).
Proof. solve_instr idtac. Qed.
Theorem cswapw_ok : instr_spec (ops_of "cswapw") 9 (fun xs => cond_pre (nz xs 0))
    (fun xs => if nz xs 0 =? 0 then firstn 8 (skipn 1 xs)
               else (firstn 4 (skipn 5 xs) ++ firstn 4 (skipn 1 xs))%list).
Proof. solve_instr idtac. Qed.
Theorem cdropw_ok : instr_spec (ops_of "cdropw") 9 (fun xs => cond_pre (nz xs 0))
    (fun xs => if nz xs 0 =? 0 then firstn 4 (skipn 5 xs) else firstn 4 (skipn 1 xs)).
Proof. solve_instr idtac. Qed.
