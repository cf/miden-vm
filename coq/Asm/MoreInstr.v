(* Instruction specifications beyond Stack/Field/U32Instr: word comparison, field ordering,
   extension-field arithmetic, remaining u32 arithmetic/comparison/bitwise forms, shifts and rotations
   by a variable and by an immediate amount, pow2.  All over the operation lists of Gen/AsmGen.v. *)
From Coq Require Import ZArith List Bool Lia String.
From MV Require Import Base.Field Core.Op Vm.Pure Asm.Limbs Asm.Pow2Chain Asm.Instr Asm.SpecDefs Asm.HintDefs.
Import ListNotations.
Open Scope Z_scope.

Local Open Scope string_scope.
Theorem eqw_ok : instr_spec (ops_of "eqw") 8 no_pre
  (fun xs => (if (nz xs 7 =? nz xs 3) && (nz xs 6 =? nz xs 2) && (nz xs 5 =? nz xs 1) && (nz xs 4 =? nz xs 0) then 1 else 0)%Z
             :: firstn 8 xs).
Proof. solve_instr idtac. Qed.
Theorem neq_ok : instr_spec (ops_of "neq") 2 no_pre (fun xs => [if (nz xs 1 =? nz xs 0)%Z then 0 else 1]).
Proof. solve_instr ltac:(apply if_negb). Qed.
Theorem assert_eqw_ok : instr_spec (ops_of "assert_eqw") 8
  (fun xs => if (nz xs 0 =? nz xs 4) && (nz xs 1 =? nz xs 5) && (nz xs 2 =? nz xs 6) && (nz xs 7 =? nz xs 3) then None
             else Some (PAssert 0))%Z
  (fun _ => []).
Proof. solve_instr idtac. Qed.
Theorem ext2add_ok : instr_spec (ops_of "ext2add") 4 no_pre
  (fun xs => [fadd (nz xs 2) (nz xs 0); fadd (nz xs 3) (nz xs 1)]).
Proof. solve_instr ltac:(apply fadd_comm). Qed.
Theorem ext2neg_ok : instr_spec (ops_of "ext2neg") 2 no_pre (fun xs => [fneg (nz xs 0); fneg (nz xs 1)]).
Proof. solve_instr idtac. Qed.
Theorem ext2sub_ok : instr_spec (ops_of "ext2sub") 4 no_pre
  (fun xs => [fsub (nz xs 2) (nz xs 0); fsub (nz xs 3) (nz xs 1)]).
Proof. solve_instr ltac:(rewrite ?(fadd_comm (fneg _)); apply fsub_as_add). Qed.

Theorem xor_ok : instr_spec (ops_of "xor") 2 (fun xs => bin_or (nz xs 1) (bin_or (nz xs 0) None))
  (fun xs => [if (nz xs 1 =? 1) || (nz xs 0 =? 1) then (if (nz xs 1 =? 1) && (nz xs 0 =? 1) then 0 else 1) else 0])%Z.
Proof.
  solve_instr ltac:(match goal with |- context [(?a =? 1)%Z || (?b =? 1)%Z] => destruct (a =? 1)%Z, (b =? 1)%Z end;
                   reflexivity).
Qed.
Theorem u32wrapping_add3_ok : instr_spec_g (ops_of "u32wrapping_add3") 3 g3 no_pre
    (fun xs => [(nz xs 2 + nz xs 1 + nz xs 0) mod TWO32]).
Proof. solve_instr idtac. Qed.
Theorem u32wrapping_madd_ok : instr_spec_g (ops_of "u32wrapping_madd") 3 g3 no_pre
    (fun xs => [(nz xs 1 * nz xs 0 + nz xs 2) mod TWO32]).
Proof. solve_instr idtac. Qed.

Theorem u32overflowing_sub_ok : instr_spec_g (ops_of "u32overflowing_sub") 2 g2 no_pre
    (fun xs => [if (nz xs 1 <? nz xs 0)%Z then 1 else 0; (nz xs 1 - nz xs 0) mod TWO32]).
Proof. solve_instr idtac. Qed.
Theorem u32wrapping_sub_ok : instr_spec_g (ops_of "u32wrapping_sub") 2 g2 no_pre
    (fun xs => [(nz xs 1 - nz xs 0) mod TWO32]).
Proof. solve_instr idtac. Qed.
Theorem u32lt_ok : instr_spec_g (ops_of "u32lt") 2 g2 no_pre (fun xs => [if (nz xs 1 <? nz xs 0)%Z then 1 else 0]).
Proof. solve_instr idtac. Qed.
Theorem u32gt_ok : instr_spec_g (ops_of "u32gt") 2 g2 no_pre (fun xs => [if (nz xs 0 <? nz xs 1)%Z then 1 else 0]).
Proof. solve_instr idtac. Qed.
Theorem u32lte_ok : instr_spec_g (ops_of "u32lte") 2 g2 no_pre (fun xs => [if (nz xs 1 <=? nz xs 0)%Z then 1 else 0]).
Proof. solve_instr ltac:(rewrite Z.leb_antisym; reflexivity). Qed.
Theorem u32gte_ok : instr_spec_g (ops_of "u32gte") 2 g2 no_pre (fun xs => [if (nz xs 0 <=? nz xs 1)%Z then 1 else 0]).
Proof. solve_instr ltac:(rewrite Z.leb_antisym; reflexivity). Qed.
Theorem u32min_instr_ok : instr_spec_g (ops_of "u32min") 2 g2 no_pre (fun xs => [Z.min (nz xs 1) (nz xs 0)]).
Proof. solve_instr lia. Qed.
Theorem u32max_instr_ok : instr_spec_g (ops_of "u32max") 2 g2 no_pre (fun xs => [Z.max (nz xs 1) (nz xs 0)]).
Proof. solve_instr lia. Qed.

Theorem u32test_ok : instr_spec (ops_of "u32test") 1 no_pre
  (fun xs => [if (nz xs 0 <? TWO32)%Z then 1 else 0; nz xs 0]).
Proof. solve_instr ltac:(rewrite div32_small by lia; reflexivity). Qed.
Theorem u32testw_ok : instr_spec (ops_of "u32testw") 4 no_pre
  (fun xs => (if (nz xs 3 <? TWO32) && (nz xs 2 <? TWO32) && (nz xs 1 <? TWO32) && (nz xs 0 <? TWO32) then 1 else 0)%Z
             :: firstn 4 xs).
Proof. solve_instr ltac:(rewrite !div32_small by lia; reflexivity). Qed.
Theorem u32assertw_ok : instr_spec (ops_of "u32assertw") 4
  (fun xs => if negb (u32max_ok (nz xs 0)) then Some (PNotU32 (nz xs 0) 0)
             else if negb (u32max_ok (nz xs 1)) then Some (PNotU32 (nz xs 1) 0)
             else if negb (u32max_ok (nz xs 2)) then Some (PNotU32 (nz xs 2) 0)
             else if negb (u32max_ok (nz xs 3)) then Some (PNotU32 (nz xs 3) 0) else None)
  (fun xs => xs).
Proof. solve_instr idtac. Qed.
Theorem u32or_ok : instr_spec_g (ops_of "u32or") 2 g2 no_pre (fun xs => [Z.lor (nz xs 1) (nz xs 0)]).
Proof. solve_instr ltac:(rewrite lor_field by lia; reflexivity). Qed.
Theorem u32not_ok : instr_spec_g (ops_of "u32not") 1 g1 no_pre (fun xs => [4294967295 - nz xs 0]).
Proof. solve_instr ltac:(apply Z.mod_small; unfold TWO32 in *; lia). Qed.
Theorem is_odd_ok : instr_spec (ops_of "is_odd") 1 no_pre (fun xs => [nz xs 0 mod 2]).
Proof. solve_instr ltac:(rewrite <- lo32_mod; apply land_one_mod2; lia). Qed.

Theorem lt_ok : instr_spec (ops_of "lt") 2 no_pre (fun xs => [if (nz xs 1 <? nz xs 0)%Z then 1 else 0]).
Proof. solve_instr ltac:(rewrite lt_limbs; reflexivity). Qed.
Theorem lte_ok : instr_spec (ops_of "lte") 2 no_pre (fun xs => [if (nz xs 1 <=? nz xs 0)%Z then 1 else 0]).
Proof. solve_instr ltac:(rewrite le_limbs; reflexivity). Qed.
Theorem gt_ok : instr_spec (ops_of "gt") 2 no_pre (fun xs => [if (nz xs 0 <? nz xs 1)%Z then 1 else 0]).
Proof. solve_instr ltac:(rewrite lt_limbs; reflexivity). Qed.
Theorem gte_ok : instr_spec (ops_of "gte") 2 no_pre (fun xs => [if (nz xs 0 <=? nz xs 1)%Z then 1 else 0]).
Proof. solve_instr ltac:(rewrite le_limbs; reflexivity). Qed.

Theorem ext2mul_ok : instr_spec (ops_of "ext2mul") 4 no_pre
  (fun xs => let c := ext_mul (nz xs 3, nz xs 2) (nz xs 1, nz xs 0) in [snd c; fst c]).
Proof. solve_instr idtac. Qed.

(* Shifts and rotations: the assembler multiplies or divides by 2^n.  For a variable n the power comes
   from [pow2_ops] (Pow2Chain.v), for an immediate n it is pushed.  What follows the power is stated once,
   for any multiplier on top of the stack, and serves both forms. *)
Lemma shl_tail p a l : 0 <= a < TWO32 -> 0 < p <= TWO32 ->
  vpure_ops [U32mul; Drop] (p :: a :: l) = POk ((a * p) mod TWO32 :: l).
Proof.
  intros Ha Hp. run_view.
  rewrite mul_le32_small, lo32_mod by lia. reflexivity.
Qed.
Lemma shr_tail p a l : 0 < p -> vpure_ops [U32div; Drop] (p :: a :: l) = POk (a / p :: l).
Proof.
  intros Hp. run_view.
  destruct (Z.eqb_spec p 0); [lia | reflexivity].
Qed.
Lemma rotl_tail p a l : 0 <= a < TWO32 -> 0 < p <= TWO32 ->
  vpure_ops [U32mul; Add] (p :: a :: l) = POk ((a * p) mod TWO32 + a * p / TWO32 :: l).
Proof.
  intros Ha Hp. run_view.
  rewrite mul_le32_small, lo32_mod, hi32_div, fadd_small by first [lia | apply mod32_bound | apply mul_hi_le32; lia].
  reflexivity.
Qed.
Lemma rotr_tail n a l : 0 <= n <= 32 -> 0 <= a < TWO32 ->
  vpure_ops [U32mul; Add] (2 ^ (32 - n) :: a :: l) = POk (a / 2 ^ n + a mod 2 ^ n * 2 ^ (32 - n) :: l).
Proof.
  intros Hn Ha. rewrite rotl_tail, rotr_halves; [reflexivity | exact Hn | exact Ha | apply (pow2_range _ 32); lia].
Qed.

Definition gsh32 (xs : list Z) : bool := (nz xs 0 <? 32)%Z && u32b (nz xs 1).

Theorem u32shl_ok : instr_spec_g (ops_of "u32shl") 2 gsh32 no_pre (fun xs => [(nz xs 1 * 2 ^ nz xs 0) mod TWO32]).
Proof.
  open_instr. ops_are (pow2_ops ++ [U32mul; Drop])%list.
  rewrite pow2_then, shl_tail by first [lia | apply (pow2_range _ 32); lia]. same_stack.
Qed.
Theorem u32shr_ok : instr_spec_g (ops_of "u32shr") 2 gsh32 no_pre (fun xs => [nz xs 1 / 2 ^ nz xs 0]).
Proof.
  open_instr. ops_are (pow2_ops ++ [U32div; Drop])%list.
  rewrite pow2_then, shr_tail by first [lia | apply (pow2_range _ 32); lia]. same_stack.
Qed.
Theorem u32rotl_ok : instr_spec_g (ops_of "u32rotl") 2 gsh32 no_pre
  (fun xs => [(nz xs 1 * 2 ^ nz xs 0) mod TWO32 + (nz xs 1 * 2 ^ nz xs 0) / TWO32]).
Proof.
  open_instr. ops_are (pow2_ops ++ [U32mul; Add])%list.
  rewrite pow2_then, rotl_tail by first [lia | apply (pow2_range _ 32); lia]. same_stack.
Qed.
Definition gsh32p (xs : list Z) : bool := (0 <? nz xs 0)%Z && (nz xs 0 <? 32)%Z && u32b (nz xs 1).
Theorem u32rotr_ok : instr_spec_g (ops_of "u32rotr") 2 gsh32 no_pre
  (fun xs => [nz xs 1 / 2 ^ nz xs 0 + (nz xs 1 mod 2 ^ nz xs 0) * 2 ^ (32 - nz xs 0)]).
Proof.
  open_instr. ops_are ([Push 32; Swap; U32sub; Drop] ++ pow2_ops ++ [U32mul; Add])%list.
  rewrite vpure_ops_app. change (vpure_ops [_; _; _; _] ?s) with (POk (lo32 (wrap64 (32 - z)) :: z0 :: t)).
  cbv iota. rewrite lo_sub, Z.mod_small, pow2_then, rotr_tail by (unfold TWO32 in *; lia). same_stack.
Qed.

Definition g64 (xs : list Z) : bool := (nz xs 0 <? 64)%Z.
Theorem pow2_ok : instr_spec_g (ops_of "pow2") 1 g64 no_pre (fun xs => [2 ^ nz xs 0]).
Proof.
  open_instr. ops_are (pow2_ops ++ [])%list. rewrite pow2_then by lia. run_view. same_stack.
Qed.

(* assembly/src/assembler/instruction/u32_ops.rs, u32shl .. u32rotr with an immediate n: nothing for
   n = 0, otherwise the power is pushed and the tail of the instruction follows *)
Definition imm_shift (tail : list op) (n : nat) (p : Z) : list op :=
  match n with O => [Noop] | S _ => Push p :: tail end.

(* a family name.0 .. name.(m-1) of the generated table: one evaluation compares the m rows with
   [imm_shift], the rest is the tail's lemma *)
Lemma imm_shift_spec name tail (p : nat -> Z) (F : nat -> list Z -> list Z) m :
  map (fun n => ops_of (name ++ show n)) (seq 0 m) = map (fun n => imm_shift tail n (p n)) (seq 0 m) ->
  has_sdepth tail = false ->
  (forall a, 0 <= a < TWO32 -> F 0%nat [a] = [a]) ->
  (forall n a l, (n < m)%nat -> 0 <= a < TWO32 -> vpure_ops tail (p n :: a :: l) = POk (F n [a] ++ l)) ->
  forall n, (n < m)%nat -> instr_spec_g (ops_of (name ++ show n)) 1 g1 no_pre (F n).
Proof.
  intros T Hs F0 Run n Hn.
  rewrite (proj1 map_ext_in_iff T n) by (apply in_seq; lia).
  destruct n as [|n]; cbn [imm_shift]; open_instr;
    [cbn; rewrite F0 by lia | change (vpure_ops _ ?s) with (vpure_ops tail (p (S n) :: s)); rewrite Run by lia];
    same_stack.
Qed.

Theorem u32shl_imm_ok : forall n, (n < 32)%nat ->
  instr_spec_g (ops_of ("u32shl." ++ show n)) 1 g1 no_pre (fun xs => [(nz xs 0 * 2 ^ Z.of_nat n) mod TWO32]).
Proof.
  apply (imm_shift_spec _ [U32mul; Drop] (fun n => 2 ^ Z.of_nat n)).
  - vm_compute. reflexivity.
  - reflexivity.
  - intros a Ha. cbn. rewrite Z.mul_1_r, Z.mod_small by exact Ha. reflexivity.
  - intros n a l Hn Ha. apply shl_tail; [exact Ha | apply (pow2_range _ 32); lia].
Qed.
Theorem u32shr_imm_ok : forall n, (n < 32)%nat ->
  instr_spec_g (ops_of ("u32shr." ++ show n)) 1 g1 no_pre (fun xs => [nz xs 0 / 2 ^ Z.of_nat n]).
Proof.
  apply (imm_shift_spec _ [U32div; Drop] (fun n => 2 ^ Z.of_nat n)).
  - vm_compute. reflexivity.
  - reflexivity.
  - intros a _. cbn. rewrite Z.div_1_r. reflexivity.
  - intros n a l Hn _. apply shr_tail, (pow2_range _ 32). lia.
Qed.
Theorem u32rotl_imm_ok : forall n, (n < 32)%nat ->
  instr_spec_g (ops_of ("u32rotl." ++ show n)) 1 g1 no_pre
    (fun xs => [(nz xs 0 * 2 ^ Z.of_nat n) mod TWO32 + (nz xs 0 * 2 ^ Z.of_nat n) / TWO32]).
Proof.
  apply (imm_shift_spec _ [U32mul; Add] (fun n => 2 ^ Z.of_nat n)).
  - vm_compute. reflexivity.
  - reflexivity.
  - intros a Ha. cbn. rewrite Z.mul_1_r, Z.mod_small, Z.div_small, Z.add_0_r by exact Ha. reflexivity.
  - intros n a l Hn Ha. apply rotl_tail; [exact Ha | apply (pow2_range _ 32); lia].
Qed.
Theorem u32rotr_imm_ok : forall n, (n < 32)%nat ->
  instr_spec_g (ops_of ("u32rotr." ++ show n)) 1 g1 no_pre
    (fun xs => [nz xs 0 / 2 ^ Z.of_nat n + (nz xs 0 mod 2 ^ Z.of_nat n) * 2 ^ (32 - Z.of_nat n)]).
Proof.
  apply (imm_shift_spec _ [U32mul; Add] (fun n => 2 ^ (32 - Z.of_nat n))).
  - vm_compute. reflexivity.
  - reflexivity.
  - intros a _. cbn. rewrite Z.div_1_r, Z.mod_1_r. f_equal. lia.
  - intros n a l Hn Ha. apply rotr_tail; [lia | exact Ha].
Qed.
