(* u32 instructions against docs/src/user_docs/assembly/u32_operations.md.  Unchecked
   operations are specified under the guard "operands < 2^32" (the documentation leaves the
   result undefined otherwise); checked ones fail with NotU32 exactly outside it. *)
From Coq Require Import ZArith List String.
From MV Require Import Base.Field Vm.Pure Asm.Limbs Asm.Instr Asm.SpecDefs.
Import ListNotations.
Open Scope Z_scope.

Theorem u32split_ok : instr_spec (ops_of "u32split") 1 no_pre
    (fun xs => [nz xs 0 / TWO32; nz xs 0 mod TWO32]).
Proof. solve_instr idtac. Qed.
Theorem u32cast_ok : instr_spec (ops_of "u32cast") 1 no_pre (fun xs => [nz xs 0 mod TWO32]).
Proof. solve_instr idtac. Qed.
Theorem u32assert2_ok : instr_spec (ops_of "u32assert2") 2
    (fun xs => if negb (u32max_ok (nz xs 0)) then Some (PNotU32 (nz xs 0) 0)
               else if negb (u32max_ok (nz xs 1)) then Some (PNotU32 (nz xs 1) 0) else None)
    (fun xs => xs).
Proof. solve_instr idtac. Qed.
Theorem u32assert_ok : instr_spec (ops_of "u32assert") 1
    (fun xs => if negb (u32max_ok (nz xs 0)) then Some (PNotU32 (nz xs 0) 0) else None)
    (fun xs => xs).
Proof. solve_instr idtac. Qed.

Theorem u32overflowing_add_ok : instr_spec_g (ops_of "u32overflowing_add") 2 g2 no_pre
    (fun xs => [(nz xs 1 + nz xs 0) / TWO32; (nz xs 1 + nz xs 0) mod TWO32]).
Proof. solve_instr idtac. Qed.
Theorem u32wrapping_add_ok : instr_spec_g (ops_of "u32wrapping_add") 2 g2 no_pre
    (fun xs => [(nz xs 1 + nz xs 0) mod TWO32]).
Proof. solve_instr idtac. Qed.
Theorem u32overflowing_add3_ok : instr_spec_g (ops_of "u32overflowing_add3") 3 g3 no_pre
    (fun xs => [(nz xs 2 + nz xs 1 + nz xs 0) / TWO32; (nz xs 2 + nz xs 1 + nz xs 0) mod TWO32]).
Proof. solve_instr idtac. Qed.
Theorem u32overflowing_mul_ok : instr_spec_g (ops_of "u32overflowing_mul") 2 g2 no_pre
    (fun xs => [(nz xs 1 * nz xs 0) / TWO32; (nz xs 1 * nz xs 0) mod TWO32]).
Proof. solve_instr idtac. Qed.
Theorem u32wrapping_mul_ok : instr_spec_g (ops_of "u32wrapping_mul") 2 g2 no_pre
    (fun xs => [(nz xs 1 * nz xs 0) mod TWO32]).
Proof. solve_instr idtac. Qed.
Theorem u32overflowing_madd_ok : instr_spec_g (ops_of "u32overflowing_madd") 3 g3 no_pre
    (fun xs => [(nz xs 1 * nz xs 0 + nz xs 2) / TWO32; (nz xs 1 * nz xs 0 + nz xs 2) mod TWO32]).
Proof. solve_instr idtac. Qed.

Theorem u32divmod_ok : instr_spec_g (ops_of "u32divmod") 2 g2
    (fun xs => if nz xs 0 =? 0 then Some PDivZero else None)
    (fun xs => [nz xs 1 mod nz xs 0; nz xs 1 / nz xs 0]).
Proof. solve_instr ltac:(apply div_rem). Qed.
Theorem u32div_ok : instr_spec_g (ops_of "u32div") 2 g2
    (fun xs => if nz xs 0 =? 0 then Some PDivZero else None) (fun xs => [nz xs 1 / nz xs 0]).
Proof. solve_instr idtac. Qed.
Theorem u32mod_ok : instr_spec_g (ops_of "u32mod") 2 g2
    (fun xs => if nz xs 0 =? 0 then Some PDivZero else None) (fun xs => [nz xs 1 mod nz xs 0]).
Proof. solve_instr ltac:(apply div_rem). Qed.

Theorem u32and_ok : instr_spec (ops_of "u32and") 2 u32_pre2 (fun xs => [Z.land (nz xs 1) (nz xs 0)]).
Proof. solve_instr idtac. Qed.
Theorem u32xor_ok : instr_spec (ops_of "u32xor") 2 u32_pre2 (fun xs => [Z.lxor (nz xs 1) (nz xs 0)]).
Proof. solve_instr idtac. Qed.
