(* The 64-bit procedures of the standard library (stdlib/asm/math/u64.masm), as the operation
   lists the real assembler inlines for `exec.u64::<name>` (Gen/StdGen.v), against exact integer
   arithmetic on operands given as 32-bit limbs. *)
From Coq Require Import ZArith List Bool Lia String.
From MV Require Import Base.Field Core.Op Vm.Pure Gen.StdGen Asm.Limbs Asm.Instr Asm.SpecDefs.
Import ListNotations.
Open Scope Z_scope.

Definition std_ops_of (name : string) : list op :=
  match lookup name std_table with Some (Some ops) => ops | _ => [] end.

(* operands: [b_hi; b_lo; a_hi; a_lo] with b on top *)
Definition A64 (xs : list Z) : Z := nz xs 2 * TWO32 + nz xs 3.
Definition B64 (xs : list Z) : Z := nz xs 0 * TWO32 + nz xs 1.
Definition g4 (xs : list Z) : bool := u32b (nz xs 0) && u32b (nz xs 1) && u32b (nz xs 2) && u32b (nz xs 3).
(* a 64-bit value as [hi; lo] with hi on top *)
Definition limbs64 (v : Z) : list Z := [v / TWO32; v mod TWO32].
Definition bool01 (b : bool) : Z := if b then 1 else 0.

Lemma limbs64_limbs h l : 0 <= l < TWO32 -> limbs64 (h * TWO32 + l) = [h; l].
Proof. intros H. unfold limbs64. rewrite split_div, split_mod by exact H. reflexivity. Qed.

(* a carry (or minus a borrow) c beside the 64 bits *)
Lemma limbs64_carry N c h l : N = c * TWO64 + (h * TWO32 + l) -> 0 <= h < TWO32 -> 0 <= l < TWO32 ->
  N / TWO64 = c /\ limbs64 (N mod TWO64) = [h; l].
Proof.
  intros -> Hh Hl. assert (B : 0 <= h * TWO32 + l < TWO64) by (unfold TWO32, TWO64 in *; lia).
  rewrite split_div, split_mod, limbs64_limbs by assumption. auto.
Qed.

(* addition: the low limbs, then the high limbs with the carry *)
Lemma add64_limbs ah al bh bl :
  let s0 := bl + al in let s1 := s0 / TWO32 + ah + bh in
  (ah * TWO32 + al + (bh * TWO32 + bl)) / TWO64 = s1 / TWO32 /\
  limbs64 ((ah * TWO32 + al + (bh * TWO32 + bl)) mod TWO64) = [s1 mod TWO32; s0 mod TWO32].
Proof.
  cbv zeta. apply limbs64_carry; try apply mod32_bound. name_divmods. unfold TWO64, TWO32 in *. lia.
Qed.

(* subtraction: the low limbs, the high limbs, then the low borrow c0 from the high difference d1;
   at most one of the two high subtractions borrows *)
Lemma sub64_limbs ah al bh bl : 0 <= ah < TWO32 -> 0 <= al < TWO32 -> 0 <= bh < TWO32 -> 0 <= bl < TWO32 ->
  let c0 := if al <? bl then 1 else 0 in let d1 := (ah - bh) mod TWO32 in
  (ah * TWO32 + al <? bh * TWO32 + bl) = (d1 <? c0) || (ah <? bh) /\
  limbs64 ((ah * TWO32 + al - (bh * TWO32 + bl)) mod TWO64) = [(d1 - c0) mod TWO32; (al - bl) mod TWO32].
Proof.
  intros Hah Hal Hbh Hbl c0 d1. pose proof (mod32_bound (ah - bh)) as B1.
  pose proof (sub_mod_flag al bl Hal Hbl) as E0. pose proof (sub_mod_flag ah bh Hah Hbh) as E1.
  pose proof (sub_mod_flag d1 c0 B1 (flag_bound _)) as E2.
  pose proof (mod32_bound (d1 - c0)) as B2. pose proof (mod32_bound (al - bl)) as B0. fold c0 in E0. fold d1 in E1, B1.
  assert (E : ah * TWO32 + al - (bh * TWO32 + bl) =
              - ((if d1 <? c0 then 1 else 0) + (if ah <? bh then 1 else 0)) * TWO64 +
              ((d1 - c0) mod TWO32 * TWO32 + (al - bl) mod TWO32)) by (unfold TWO64, TWO32 in *; lia).
  split; [|apply (limbs64_carry _ _ _ _ E); assumption].
  destruct (d1 <? c0) eqn:L1, (ah <? bh) eqn:L2; unfold TWO64, TWO32 in *; lia.
Qed.

Ltac run_to_end := open_instr; run_ops; ran; cbv [A64 B64 nz nth bool01].

Local Open Scope string_scope.

Theorem u64_wrapping_add : instr_spec_g (std_ops_of "u64::wrapping_add") 4 g4 no_pre
  (fun xs => limbs64 ((A64 xs + B64 xs) mod TWO64)).
Proof. run_to_end. destruct (add64_limbs z1 z2 z z0) as [_ E]. rewrite E. same_stack. Qed.

Theorem u64_overflowing_add : instr_spec_g (std_ops_of "u64::overflowing_add") 4 g4 no_pre
  (fun xs => (A64 xs + B64 xs) / TWO64 :: limbs64 ((A64 xs + B64 xs) mod TWO64)).
Proof. run_to_end. destruct (add64_limbs z1 z2 z z0) as [B E]. rewrite B, E. same_stack. Qed.

Theorem u64_wrapping_sub : instr_spec_g (std_ops_of "u64::wrapping_sub") 4 g4 no_pre
  (fun xs => limbs64 ((A64 xs - B64 xs) mod TWO64)).
Proof.
  run_to_end. destruct (sub64_limbs z1 z2 z z0) as [_ E]; try lia. rewrite E. same_stack.
Qed.

Theorem u64_overflowing_sub : instr_spec_g (std_ops_of "u64::overflowing_sub") 4 g4 no_pre
  (fun xs => bool01 (A64 xs <? B64 xs)%Z :: limbs64 ((A64 xs - B64 xs) mod TWO64)).
Proof.
  run_to_end. destruct (sub64_limbs z1 z2 z z0) as [B E]; try lia. rewrite B, E. same_stack.
Qed.

(* The run leaves the flag of (hi <) || ((hi =) && (lo <)), in u64::gt and u64::lte with the conjuncts the
   other way round; u64::lte and u64::gte negate it. *)
Ltac by_order :=
  try rewrite (andb_comm (_ <? _)%Z); rewrite <- ltb_limbs, <- ?Z.leb_antisym by lia; same_stack.

Theorem u64_lt : instr_spec_g (std_ops_of "u64::lt") 4 g4 no_pre (fun xs => [bool01 (A64 xs <? B64 xs)%Z]).
Proof. run_to_end. by_order. Qed.
Theorem u64_lte : instr_spec_g (std_ops_of "u64::lte") 4 g4 no_pre (fun xs => [bool01 (A64 xs <=? B64 xs)%Z]).
Proof. run_to_end. by_order. Qed.
Theorem u64_gt : instr_spec_g (std_ops_of "u64::gt") 4 g4 no_pre (fun xs => [bool01 (B64 xs <? A64 xs)%Z]).
Proof. run_to_end. by_order. Qed.
Theorem u64_gte : instr_spec_g (std_ops_of "u64::gte") 4 g4 no_pre (fun xs => [bool01 (B64 xs <=? A64 xs)%Z]).
Proof. run_to_end. by_order. Qed.
Theorem u64_eq : instr_spec_g (std_ops_of "u64::eq") 4 g4 no_pre (fun xs => [bool01 (A64 xs =? B64 xs)%Z]).
Proof. run_to_end. rewrite <- eqb_limbs, Z.eqb_sym by lia. same_stack. Qed.
Theorem u64_neq : instr_spec_g (std_ops_of "u64::neq") 4 g4 no_pre (fun xs => [bool01 (negb (A64 xs =? B64 xs)%Z)]).
Proof. run_to_end. rewrite <- negb_andb, <- eqb_limbs, Z.eqb_sym by lia. same_stack. Qed.
Theorem u64_eqz : instr_spec_g (std_ops_of "u64::eqz") 2 g2 no_pre
  (fun xs => [bool01 (nz xs 0 * TWO32 + nz xs 1 =? 0)%Z]).
Proof. run_to_end. rewrite <- (eqb_limbs _ _ 0 0) by lia. change (0 * TWO32 + 0) with 0. same_stack. Qed.

Theorem u64_and : instr_spec (std_ops_of "u64::and") 4
  (fun xs => if negb (u32max_ok (nz xs 1)) then Some (PNotU32 (nz xs 1) 0)
             else if negb (u32max_ok (nz xs 3)) then Some (PNotU32 (nz xs 3) 0)
             else if negb (u32max_ok (nz xs 0)) then Some (PNotU32 (nz xs 0) 0)
             else if negb (u32max_ok (nz xs 2)) then Some (PNotU32 (nz xs 2) 0) else None)
  (fun xs => [Z.land (nz xs 0) (nz xs 2); Z.land (nz xs 1) (nz xs 3)]).
Proof.
  solve_instr ltac:(apply Z.land_comm).
Qed.

Lemma land64_limbs ah al bh bl :
  0 <= ah -> 0 <= al < TWO32 -> 0 <= bh -> 0 <= bl < TWO32 ->
  Z.land (ah * TWO32 + al) (bh * TWO32 + bl) = Z.land ah bh * TWO32 + Z.land al bl.
Proof.
  intros _ Hal _. apply (bitwise_limbs Z.land andb Z.land_spec eq_refl). exact Hal.
Qed.
