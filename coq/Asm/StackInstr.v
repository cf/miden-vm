(* Stack-manipulation instructions: every form the assembler accepts, against its documented
   effect, for every stack (docs/src/user_docs/assembly/stack_manipulation.md). *)
From Coq Require Import ZArith List Lia String.
From MV Require Import Base.Field Asm.Instr Asm.SpecDefs.
Import ListNotations.
Open Scope Z_scope.

(* the permutations reach below their operands (SWAPDW); dup.8, 10, 12, 14 copy by adding to a zero *)
Ltac perm_instr := open_at 16%nat; run_view; rewrite ?fadd_0_l by assumption; same_stack.

(* n = 0, 1, ... k-1 one by one: a value outside the range of the statement is refuted, the others are run *)
Tactic Notation "cases" integer(k) ident(n) := do k (destruct n as [|n]; [first [exfalso; lia | perm_instr]|]); exfalso; lia.

Theorem dup_ok : forall n, (n < 16)%nat ->
  instr_spec (ops_of ("dup." ++ show n)) (n + 1) no_pre (spec_dup n).
Proof. intros n Hn. cases 16 n. Qed.

Theorem swap_ok : forall n, (1 <= n < 16)%nat ->
  instr_spec (ops_of ("swap." ++ show n)) (n + 1) no_pre (spec_swap n).
Proof. intros n Hn. cases 16 n. Qed.

Theorem movup_ok : forall n, (2 <= n < 16)%nat ->
  instr_spec (ops_of ("movup." ++ show n)) (n + 1) no_pre (spec_movup n).
Proof. intros n Hn. cases 16 n. Qed.

Theorem movdn_ok : forall n, (2 <= n < 16)%nat ->
  instr_spec (ops_of ("movdn." ++ show n)) (n + 1) no_pre (spec_movdn n).
Proof. intros n Hn. cases 16 n. Qed.

Theorem dupw_ok : forall n, (n < 4)%nat ->
  instr_spec (ops_of ("dupw." ++ show n)) (4 * n + 4) no_pre (spec_dupw n).
Proof. intros n Hn. cases 4 n. Qed.

Theorem swapw_ok : forall n, (1 <= n < 4)%nat ->
  instr_spec (ops_of ("swapw." ++ show n)) (4 * n + 4) no_pre (spec_swapw n).
Proof. intros n Hn. cases 4 n. Qed.

Theorem movupw_ok : forall n, (2 <= n < 4)%nat ->
  instr_spec (ops_of ("movupw." ++ show n)) (4 * n + 4) no_pre (spec_movupw n).
Proof. intros n Hn. cases 4 n. Qed.

Theorem movdnw_ok : forall n, (2 <= n < 4)%nat ->
  instr_spec (ops_of ("movdnw." ++ show n)) (4 * n + 4) no_pre (spec_movdnw n).
Proof. intros n Hn. cases 4 n. Qed.

Theorem drop_ok : instr_spec (ops_of "drop") 1 no_pre (fun _ => []).
Proof. perm_instr. Qed.
Theorem dropw_ok : instr_spec (ops_of "dropw") 4 no_pre (fun _ => []).
Proof. perm_instr. Qed.
Theorem padw_ok : instr_spec (ops_of "padw") 0 no_pre (fun _ => [0; 0; 0; 0]).
Proof. perm_instr. Qed.
Theorem swapdw_ok : instr_spec (ops_of "swapdw") 16 no_pre (fun xs => (skipn 8 xs ++ firstn 8 xs)%list).
Proof. perm_instr. Qed.
