(* The EXPACC chain: square-and-multiply on the stack, and the sixteen operations with which the
   assembler turns an exponent e on top of the stack into 2^e (failing when e >= 64). *)
From Coq Require Import ZArith List Lia Zpow_facts.
From MV Require Import Base.Field Core.Op Vm.Pure Vm.PureProps Asm.Limbs.
Import ListNotations.
Open Scope Z_scope.

Lemma vpure_ops_app a b l :
  vpure_ops (a ++ b) l = match vpure_ops a l with POk l' => vpure_ops b l' | PErr e => PErr e end.
Proof. apply pure_ops_gen_app. Qed.

(* n EXPACC steps on (_, b, a, x): the base is squared n times, the accumulator is multiplied by
   b^(the low n bits of x), and x loses those bits *)
Lemma expacc_iter n : forall t b a x l, canon b -> canon a -> 0 <= x ->
  exists t', vpure_ops (repeat Expacc n) (t :: b :: a :: x :: l) =
    POk (t' :: (b ^ 2 ^ Z.of_nat n) mod P :: (a * b ^ (x mod 2 ^ Z.of_nat n)) mod P :: x / 2 ^ Z.of_nat n :: l).
Proof.
  induction n as [|n IH]; intros t b a x l Hb Ha Hx.
  - exists t. cbn [repeat vpure_ops pure_ops_gen Z.of_nat]. unfold canon in *.
    rewrite Z.pow_0_r, Z.pow_1_r, Z.mod_1_r, Z.pow_0_r, Z.mul_1_r, Z.div_1_r, !Z.mod_small by lia. reflexivity.
  - cbn [repeat]. change (vpure_ops (Expacc :: ?r) ?s) with
      (vpure_ops r (Z.land x 1 :: fmul b b :: fmul a (if Z.land x 1 =? 1 then b else 1) :: Z.shiftr x 1 :: l)).
    rewrite Z.shiftr_div_pow2, Z.pow_1_r by lia.
    destruct (IH (Z.land x 1) (fmul b b) (fmul a (if Z.land x 1 =? 1 then b else 1)) (x / 2) l
                 (fmul_canon _ _) (fmul_canon _ _) (Z.div_pos x 2 Hx ltac:(lia))) as [t' E].
    exists t'. rewrite E. clear E IH.
    assert (Hp : 0 < 2 ^ Z.of_nat n) by (apply Z.pow_pos_nonneg; lia).
    rewrite Nat2Z.inj_succ, Z.pow_succ_r, Z.div_div, Z.rem_mul_r by lia.
    set (m := (x / 2) mod 2 ^ Z.of_nat n). assert (Hm : 0 <= m) by (apply Z.mod_pos_bound; exact Hp).
    assert (Ev : (if Z.land x 1 =? 1 then b else 1) = b ^ (x mod 2)).
    { rewrite land_1_mod2. pose proof (Z.mod_pos_bound x 2 ltac:(lia)).
      destruct (Z.eqb_spec (x mod 2) 1) as [->|N]; [rewrite Z.pow_1_r; reflexivity|].
      replace (x mod 2) with 0 by lia. reflexivity. }
    rewrite Ev. unfold fmul. f_equal. f_equal. f_equal; [|f_equal].
    + rewrite <- Zpower_mod by reflexivity. rewrite <- Z.pow_2_r, <- Z.pow_mul_r by lia. reflexivity.
    + rewrite Z.mul_mod, <- Zpower_mod, Z.mod_mod, <- Z.mul_mod by (try reflexivity; discriminate).
      rewrite <- Z.pow_2_r, <- Z.pow_mul_r, <- Z.mul_assoc, <- Z.pow_add_r by (try apply Z.mod_pos_bound; lia).
      reflexivity.
Qed.

Definition pow2_ops : list op :=
  [Push 2; Pad; Incr; Swap; Pad; Expacc; Expacc; Expacc; Expacc; Expacc; Expacc; Drop; Drop; Swap; Eqz; Assert 0].

Lemma vpow2_run e l : 0 <= e ->
  vpure_ops pow2_ops (e :: l) = if e <? 64 then POk (2 ^ e :: l) else PErr (PAssert 0).
Proof.
  intros He. change pow2_ops with ([Push 2; Pad; Incr; Swap; Pad] ++ repeat Expacc 6 ++ [Drop; Drop; Swap; Eqz; Assert 0]).
  rewrite vpure_ops_app. change (vpure_ops [Push 2; Pad; Incr; Swap; Pad] (e :: l)) with (POk (0 :: 2 :: 1 :: e :: l)).
  cbv iota. rewrite vpure_ops_app.
  destruct (expacc_iter 6 0 2 1 e l) as [t' E]; [unfold canon, P; lia .. | exact He |]. rewrite E. clear E.
  change (2 ^ Z.of_nat 6) with 64.
  cbv [vpure_ops pure_ops_gen vpure_op pure_op_gen vreplace gl nth skipn app].
  pose proof (Z.mod_pos_bound e 64 ltac:(lia)) as Hm.
  destruct (Z.ltb_spec e 64) as [L|G].
  - pose proof (pow2_range e 63 ltac:(lia)).
    rewrite (Z.div_small e 64), (Z.mod_small e 64), Z.mul_1_l, Z.mod_small by (unfold P; lia). reflexivity.
  - destruct (Z.eqb_spec (e / 64) 0) as [Q|_]; [apply Z.div_small_iff in Q; lia | reflexivity].
Qed.

Lemma pow2_then post e l : 0 <= e < 64 -> vpure_ops (pow2_ops ++ post) (e :: l) = vpure_ops post (2 ^ e :: l).
Proof.
  intros H. rewrite vpure_ops_app, vpow2_run by lia.
  destruct (Z.ltb_spec e 64); [reflexivity | lia].
Qed.
