(* Soundness of the hint-taking instructions, for EVERY hint.  u32clz, u32clo, u32ctz, u32cto and
   ilog2 pop a guess at their result, turn it into a power of two with the chain of Pow2Chain.v and
   test the operand against a mask made of that power; ext2inv and ext2div multiply the hinted
   inverse back. *)
From Coq Require Import ZArith List Bool Lia String.
From MV Require Import Base.Field Core.Op Vm.Pure Vm.PureProps Asm.Limbs Asm.Pow2Chain Asm.Instr Asm.SpecDefs
  Asm.HintDefs.
Import ListNotations.
Open Scope Z_scope.

(* a canonical h with c - h = e (mod p) is c - e (mod p) *)
Lemma hint_from_diff c h e : canon h -> e = fadd c (fneg h) -> h = fsub c e /\ 0 <= e.
Proof.
  intros Hh ->. split; [|apply fadd_canon]. rewrite fsub_as_add. unfold canon, fsub in *.
  rewrite Zminus_mod_idemp_r. replace (c - (c - h)) with h by ring. symmetry. apply Z.mod_small. exact Hh.
Qed.

Lemma land_ones32 z : 0 <= z < TWO32 -> Z.land 4294967295 z = z.
Proof.
  intros. rewrite Z.land_comm. change 4294967295 with (Z.ones 32). rewrite Z.land_ones by lia. apply Z.mod_small. assumption.
Qed.

(* masking with ones in positions k .. 31 clears the low k bits of a 32-bit number *)
Lemma high_bits k a : 0 <= k <= 32 -> 0 <= a < 2 ^ 32 -> Z.land (2 ^ 32 - 2 ^ k) a = a - a mod 2 ^ k.
Proof.
  intros Hk Ha. pose proof (pow2_range k 32 Hk).
  replace (a - a mod 2 ^ k) with (Z.shiftl (Z.shiftr a k) k)
    by (rewrite Z.shiftl_mul_pow2, Z.shiftr_div_pow2 by lia; pose proof (Z.div_mod a (2 ^ k)); lia).
  replace (2 ^ 32 - 2 ^ k) with (Z.shiftl (Z.ones (32 - k)) k)
    by (rewrite Z.shiftl_mul_pow2, Z.ones_equiv, Z.mul_pred_l, <- Z.pow_add_r by lia; replace (32 - k + k) with 32; lia).
  bits. destruct (Z_lt_ge_dec n k).
  - rewrite !Z.shiftl_spec_low by lia. reflexivity.
  - rewrite !Z.shiftl_spec, Z.shiftr_spec by lia. replace (n - k + k) with n by lia. destruct (Z_lt_ge_dec n 32).
    + rewrite Z.ones_spec_low by lia. reflexivity.
    + rewrite (high_bits_zero a n) by lia. apply andb_false_r.
Qed.

(* the masked comparison that pins down the position of the leading one *)
Lemma leading_one k a : 0 <= k < 32 -> 0 <= a < 2 ^ 32 -> 2 ^ k = Z.land (2 ^ 32 - 2 ^ k) a -> 2 ^ k <= a < 2 ^ (k + 1).
Proof.
  intros Hk Ha H. rewrite high_bits in H by lia. pose proof (pow2_range k 31 ltac:(lia)).
  pose proof (Z.mod_pos_bound a (2 ^ k)). rewrite Z.pow_add_r by lia. lia.
Qed.

(* ... and of the leading zero *)
Lemma leading_zero k a : 0 <= k < 32 -> 0 <= a < 2 ^ 32 ->
  2 ^ 32 - 2 ^ (k + 1) = Z.land (2 ^ 32 - 2 ^ k) a -> 2 ^ 32 - 2 ^ (k + 1) <= a < 2 ^ 32 - 2 ^ k.
Proof.
  intros Hk Ha H. rewrite high_bits in H by lia. pose proof (pow2_range k 31 ltac:(lia)).
  pose proof (Z.mod_pos_bound a (2 ^ k)). rewrite Z.pow_add_r in * by lia. lia.
Qed.

Lemma clz32_of_range k a : 0 <= k -> 2 ^ k <= a < 2 ^ (k + 1) -> clz32 a = 31 - k.
Proof.
  intros Hk Ha. unfold clz32. pose proof (pow2_range k k ltac:(lia)).
  destruct (Z.eqb_spec a 0); [lia|]. rewrite (Z.log2_unique a k); [reflexivity | lia | exact Ha].
Qed.

Lemma clo32_of_range k a : 0 <= k -> 2 ^ 32 - 2 ^ (k + 1) <= a < 2 ^ 32 - 2 ^ k -> clo32 a = 31 - k.
Proof. intros Hk Ha. apply clz32_of_range; [exact Hk|]. unfold not32. lia. Qed.

(* trailing zeros: the argument is an odd multiple of 2^n *)
Lemma ctz_aux_odd n : forall f q, (n < f)%nat -> ctz_aux f (2 ^ Z.of_nat n * (2 * q + 1)) = Z.of_nat n.
Proof.
  induction n as [|n IH]; intros [|f] q Hf; try lia; cbn [ctz_aux].
  - rewrite Z.mul_1_l, Z.add_comm, Z.even_add_mul_2. reflexivity.
  - rewrite Nat2Z.inj_succ, Z.pow_succ_r, <- Z.mul_assoc, Z.even_mul, (Z.mul_comm 2 (_ * _)), Z.div_mul, IH by lia. change (Z.even 2) with true. cbn [orb]. lia.
Qed.
Lemma ctz32_odd n q : 0 <= n < 32 -> ctz32 (2 ^ n * (2 * q + 1)) = n.
Proof.
  intros Hn. unfold ctz32. rewrite (proj2 (Z.eqb_neq _ 0)) by (apply Z.neq_mul_0; split; [apply Z.pow_nonzero|]; lia).
  rewrite <- (Z2Nat.id n) by lia. apply ctz_aux_odd. lia.
Qed.
Lemma ctz32_of_mod a n : 0 <= n < 32 -> a mod 2 ^ (n + 1) = 2 ^ n -> ctz32 a = n.
Proof.
  intros Hn H. rewrite (Z.div_mod a (2 ^ (n + 1))), H, Z.pow_add_r by (try apply Z.pow_nonzero; lia).
  replace (_ + _) with (2 ^ n * (2 * (a / (2 ^ n * 2 ^ 1)) + 1)) by ring. apply ctz32_odd, Hn.
Qed.
Lemma cto32_of_mod a n : 0 <= n < 32 -> a mod 2 ^ (n + 1) = 2 ^ n - 1 -> cto32 a = n.
Proof.
  intros Hn H. unfold cto32, not32.
  assert (E : 4294967296 = 2 ^ n * (2 * 2 ^ (31 - n)))
    by (rewrite <- Z.pow_succ_r, <- Z.pow_add_r by lia; replace (n + Z.succ (31 - n)) with 32 by lia; reflexivity).
  pose proof (Z.div_mod a (2 ^ (n + 1)) ltac:(apply Z.pow_nonzero; lia)) as D. rewrite H, Z.pow_add_r in D by lia.
  replace (4294967295 - a) with (2 ^ n * (2 * (2 ^ (31 - n) - a / (2 ^ n * 2 ^ 1) - 1) + 1)) by lia.
  apply ctz32_odd, Hn.
Qed.

(* what u32clz and u32clo make of 2^e: m = 2^32 - 2^e and q = 2^e / 2 in the field, and the mask m + q;
   u32clz wants the masked operand to be q, u32clo wants it to be m *)
Lemma high_mask_counts e z : 0 <= e < 64 -> 0 <= z < TWO32 ->
  let m := fadd 4294967296 (fneg (2 ^ e)) in let q := 2 ^ e / 2 in
  (fadd m q < TWO32 -> q = Z.land (fadd m q) z -> fsub 32 e = clz32 z) /\
  (fadd q m < TWO32 -> m = Z.land (fadd q m) z -> fsub 32 e = clo32 z).
Proof.
  intros He Hz m q. rewrite (fadd_comm q m). destruct (Z.eq_dec e 0) as [->|N].
  - (* the mask is all ones: the operand is 0, or 2^32 - 1 *)
    change (fadd m q) with 4294967295. rewrite land_ones32 by exact Hz. split; intros _ <-; reflexivity.
  - pose proof (pow2_range e 63 ltac:(lia)). unfold m, q.
    rewrite (pow2_double e), (Z.mul_comm 2), Z.div_mul in * by lia. destruct (Z_le_gt_dec e 32).
    + pose proof (pow2_range (e - 1) 31 ltac:(lia)). rewrite fadd_fneg_small, fadd_small by (unfold P, TWO32; lia).
      replace (4294967296 - 2 ^ (e - 1) * 2 + 2 ^ (e - 1)) with (2 ^ 32 - 2 ^ (e - 1)) by lia.
      unfold fsub. rewrite Z.mod_small by (unfold P; lia). split; intros _ Hq.
      * rewrite (clz32_of_range (e - 1) z); [lia | lia | apply leading_one; [lia | exact Hz | exact Hq]].
      * rewrite (clo32_of_range (e - 1) z); [lia | lia | apply leading_zero; [lia | exact Hz |]].
        rewrite <- Hq, Z.pow_add_r by lia. lia.
    + (* neither q nor m is a 32-bit number *)
      pose proof (pow2_range 33 e ltac:(lia)). pose proof (pow2_range 32 (e - 1) ltac:(lia)).
      rewrite fadd_fneg_wrap by (unfold P; lia).
      split; intros Hm Hq; destruct (land_u32 _ z (conj (proj1 (fadd_canon _ _)) Hm) Hz) as [_ B];
        rewrite <- Hq in B; unfold TWO32, P in *; lia.
Qed.

(* what u32ctz and u32cto make of 2^e: c = 2^e - 1 in the field, and the mask m = lo32 (2^e) + c;
   u32ctz wants the masked operand to be lo32 (2^e), u32cto wants it to be c *)
Lemma low_mask_counts e z : 0 <= e < 64 -> 0 <= z < TWO32 ->
  let c := fadd (2 ^ e) (fneg (fadd 0 1)) in let m := fadd (lo32 (2 ^ e)) c in
  m < TWO32 -> (lo32 (2 ^ e) = Z.land m z -> e = ctz32 z) /\ (c = Z.land m z -> e = cto32 z).
Proof.
  intros He Hz c m. pose proof (pow2_range e 63 ltac:(lia)).
  assert (Ec : c = 2 ^ e - 1) by (apply fadd_fneg_small; unfold P; lia). unfold m. rewrite Ec.
  destruct (Z_lt_ge_dec e 32).
  - destruct (pow2_limbs_low e ltac:(lia)) as [_ ->]. pose proof (pow2_range e 31 ltac:(lia)).
    rewrite fadd_small by (unfold TWO32; lia).
    replace (2 ^ e + (2 ^ e - 1)) with (Z.ones (e + 1)) by (rewrite Z.ones_equiv, Z.pow_add_r; lia).
    rewrite Z.land_comm, Z.land_ones by lia.
    intros _. split; intros Hq; symmetry; [apply ctz32_of_mod | apply cto32_of_mod]; lia.
  - destruct (pow2_limbs_high e ltac:(lia)) as [_ ->]. rewrite fadd_0_l by (unfold canon, P; lia).
    destruct (Z.eq_dec e 32) as [->|N].
    + (* the mask is all ones: the operand is 0, or 2^32 - 1 *)
      change (2 ^ 32 - 1) with 4294967295. rewrite land_ones32 by exact Hz. intros _. split; intros <-; reflexivity.
    + pose proof (pow2_range 33 e ltac:(lia)). unfold TWO32. lia.
Qed.

(* from the view to the real stack, for every hint list of the right length *)
Lemma hinted_sdepth ops : forall hs, has_sdepth ops = false -> has_sdepth (hinted ops hs) = false.
Proof.
  induction ops as [|o ops IH]; intros hs H; [reflexivity|].
  destruct o; cbn [hinted has_sdepth] in *; try (apply IH; exact H); try discriminate H.
  destruct hs as [|h t]; cbn [has_sdepth]; [exact H | apply IH; exact H].
Qed.

Lemma sound_of_view ops k guard f : has_sdepth ops = false ->
  on_elems (count_advpop ops) (fun hs => view_sound (hinted ops hs) k guard f) -> hint_sound ops k guard f.
Proof.
  intros Hs Hv hs Hlen Hcan l Hl Hc Hg l' H. pose proof (on_elems_all _ _ Hv hs Hlen Hcan l Hl Hc Hg) as V.
  pose proof (run_by_view _ l (hinted_sdepth _ hs Hs) Hl) as R.
  destruct (vpure_ops (hinted ops hs) l); rewrite H in R; [|discriminate R].
  destruct R as (l'' & E & S & D). apply POk_inj in E. subst l''. split; [eapply stack_eq_trans; eauto | exact D].
Qed.

(* nothing is known of a hint: every test the run meets is split *)
Ltac split_ifs := repeat (run_view; lazymatch goal with |- context [if ?c then _ else _] => test c end).

(* The shape the five routines share: [pre] makes an exponent e of the hint; the chain turns it into
   2^e, or fails when e >= 64; [mid] makes a mask m and a number c of 2^e and leaves operand, m, c on
   top; the last three operations let the run go on only if m and the operand are 32-bit numbers and
   c = m AND operand.  What is left to each proof is the run of [pre] and [mid], with e a variable,
   and the arithmetic of that equation. *)
Lemma masked_view ops pre mid guard f e (s : Z -> list Z -> list Z) :
  canon e -> ops = (pre ++ pow2_ops ++ mid ++ [U32and; OpEq; Assert 0])%list ->
  (forall z t, vpure_ops pre (z :: t) = POk (e :: s z t)) ->
  (forall z t, canon z -> guard [z] = true -> e < 64 ->
     match vpure_ops mid (2 ^ e :: s z t) with
     | POk r => gl r 1 < TWO32 -> gl r 0 < TWO32 -> gl r 2 = Z.land (gl r 1) (gl r 0) ->
                stack_eq (skipn 3 r) (f [z] ++ t)
     | PErr _ => True
     end) ->
  view_sound ops 1 guard f.
Proof.
  intros He -> Hpre H. refine (on_stack 1 _ _ _); [lia|]. intros z Hz t Hg. cbn [firstn skipn app] in *.
  rewrite vpure_ops_app, Hpre, vpure_ops_app, vpow2_run by apply He.
  destruct (Z.ltb_spec e 64) as [L|_]; [|exact I]. specialize (H z t Hz Hg L).
  rewrite vpure_ops_app. destruct (vpure_ops mid (2 ^ e :: s z t)) as [r|]; [|exact I].
  destruct r as [|a [|m [|c s']]]; cbv [gl nth skipn] in H; split_ifs; rewrite ?flag_eqb in *; try exact I;
    (apply H; first [apply u32_checked_inv; assumption | apply Z.eqb_eq; assumption | reflexivity]).
Qed.

Local Open Scope string_scope.

Theorem u32clz_sound : hint_sound (ops_of "u32clz") 1 g1 (fun xs => [clz32 (nz xs 0)]).
Proof.
  (* the table is looked up once, by evaluation: [intros] would redo it by head reduction *)
  eval_ops (ops_of "u32clz"). apply sound_of_view; [reflexivity|]. intros h Hh.
  apply (masked_view _ [Push h; Swap; Push 32; Dup2; Neg; Add]
           [Push 4294967296; Dup1; Neg; Add; Swap; Push 2; U32div; Drop; Swap; Dup1; Add; MovUp2]
           _ _ (fadd 32 (fneg h)) (fun z t => z :: h :: t) (fadd_canon _ _)); [reflexivity ..|].
  intros z t [Hz _] _. remember (fadd 32 (fneg h)) as e eqn:E. apply (hint_from_diff _ _ _ Hh) in E as [-> He0]. intros He.
  split_ifs. intros Hm Hz' Hq.
  apply stack_eq_cons; [|apply stack_eq_refl]. apply (high_mask_counts e z); first [assumption | lia].
Qed.

Theorem u32clo_sound : hint_sound (ops_of "u32clo") 1 g1 (fun xs => [clo32 (nz xs 0)]).
Proof.
  eval_ops (ops_of "u32clo"). apply sound_of_view; [reflexivity|]. intros h Hh.
  apply (masked_view _ [Push h; Swap; Push 32; Dup2; Neg; Add]
           [Push 4294967296; Dup1; Neg; Add; Swap; Push 2; U32div; Drop; Dup1; Add; MovUp2]
           _ _ (fadd 32 (fneg h)) (fun z t => z :: h :: t) (fadd_canon _ _)); [reflexivity ..|].
  intros z t [Hz _] _. remember (fadd 32 (fneg h)) as e eqn:E. apply (hint_from_diff _ _ _ Hh) in E as [-> He0]. intros He.
  split_ifs. intros Hm Hz' Hq.
  apply stack_eq_cons; [|apply stack_eq_refl]. apply (high_mask_counts e z); first [assumption | lia].
Qed.

Theorem u32ctz_sound : hint_sound (ops_of "u32ctz") 1 g1 (fun xs => [ctz32 (nz xs 0)]).
Proof.
  eval_ops (ops_of "u32ctz"). apply sound_of_view; [reflexivity|]. intros h Hh.
  apply (masked_view _ [Push h; Swap; Dup1] [Dup0; Pad; Incr; Neg; Add; Swap; U32split; Drop; Dup0; MovUp2; Add; MovUp2]
           _ _ h (fun z t => z :: h :: t) Hh); [reflexivity ..|].
  destruct Hh as [Hh _]. intros z t [Hz _] _ He.
  run_view. intros Hm Hz' Hq.
  apply stack_eq_cons; [|apply stack_eq_refl]. apply (low_mask_counts h z); first [assumption | lia].
Qed.

Theorem u32cto_sound : hint_sound (ops_of "u32cto") 1 g1 (fun xs => [cto32 (nz xs 0)]).
Proof.
  eval_ops (ops_of "u32cto"). apply sound_of_view; [reflexivity|]. intros h Hh.
  apply (masked_view _ [Push h; Swap; Dup1] [Dup0; Pad; Incr; Neg; Add; Swap; U32split; Drop; Dup1; Add; MovUp2]
           _ _ h (fun z t => z :: h :: t) Hh); [reflexivity ..|].
  destruct Hh as [Hh _]. intros z t [Hz _] _ He.
  run_view. intros Hm Hz' Hq.
  apply stack_eq_cons; [|apply stack_eq_refl]. apply (low_mask_counts h z); first [assumption | lia].
Qed.

(* ext2inv / ext2div: the hinted element is checked to be an inverse.
   a = (a0, a1) with a1 on top; the run leaves b = (b0, b1) with b1 on top such that a * b = 1,
   and the rest of the stack as it was *)
Theorem ext2inv_view : forall h1 h2, canon h1 -> canon h2 ->
  view_post (hinted (ops_of "ext2inv") [h1; h2]) (fun _ => true)
    (fun l lv => ext_mul (nz l 1, nz l 0) (nz lv 1, nz lv 0) = (1, 0) /\ stack_eq (skipn 2 lv) (skipn 2 l)).
Proof.
  intros h1 h2 H1 H2.
  eval_ops (ops_of "ext2inv"). cbn [hinted]. name_top 2%nat.
  split_ifs; try done_true.
  cbv [nz nth skipn ext_mul]. split; [|apply stack_eq_refl].
  rewrite ?flag_eqb in *. f_equal; apply Z.eqb_eq; assumption.
Qed.

Theorem ext2div_view : forall h1 h2, canon h1 -> canon h2 ->
  view_post (hinted (ops_of "ext2div") [h1; h2]) (fun _ => true)
    (fun l lv => exists b0 b1, ext_mul (nz l 1, nz l 0) (b0, b1) = (1, 0) /\
                               (nz lv 1, nz lv 0) = ext_mul (nz l 3, nz l 2) (b0, b1) /\
                               stack_eq (skipn 2 lv) (skipn 4 l)).
Proof.
  intros h1 h2 H1 H2.
  eval_ops (ops_of "ext2div"). cbn [hinted]. name_top 4%nat.
  split_ifs; try done_true.
  cbv [nz nth skipn ext_mul]. exists h1, h2. split; [|split; [reflexivity | apply stack_eq_refl]].
  rewrite ?flag_eqb in *. f_equal; apply Z.eqb_eq; assumption.
Qed.

(* the specifications are the usual bit counts: non-vacuity on a few values *)
Example bit_counts :
  clz32 1 = 31 /\ clz32 0 = 32 /\ clz32 4294967295 = 0 /\ ctz32 8 = 3 /\ ctz32 0 = 32 /\ ctz32 2147483648 = 31 /\
  clo32 4294967295 = 32 /\ clo32 4026531840 = 4 /\ cto32 7 = 3 /\ cto32 0 = 0.
Proof. vm_compute. repeat split; reflexivity. Qed.

Lemma limbs z : canon z ->
  z = hi32 z * 2 ^ 32 + lo32 z /\ 0 <= lo32 z < 2 ^ 32 /\ 0 <= hi32 z < 2 ^ 32.
Proof.
  intros Hz. rewrite <- (hi_lo z) at 1. rewrite hi32_div, lo32_mod.
  exact (conj eq_refl (conj (mod32_bound z) (hi_bound z Hz))).
Qed.

Lemma log2_low z h : canon z -> 0 <= h -> hi32 z = 0 -> 2 ^ h <= lo32 z < 2 ^ (h + 1) -> Z.log2 z = h.
Proof.
  intros Hz Hh Hhi Hr. destruct (limbs z Hz) as [Hd _]. rewrite Hhi in Hd.
  apply Z.log2_unique; [lia|]. replace (Z.succ h) with (h + 1) by lia. lia.
Qed.
Lemma log2_high z h : canon z -> 32 <= h -> 2 ^ (h - 32) <= hi32 z < 2 ^ (h - 32 + 1) -> Z.log2 z = h.
Proof.
  intros Hz Hh Hr. destruct (limbs z Hz) as [Hd [Hlo _]].
  apply Z.log2_unique; [lia|]. replace (Z.succ h) with (h - 32 + 1 + 32) by lia. replace h with (h - 32 + 32) at 1 by lia.
  rewrite !(Z.pow_add_r _ _ 32) by lia. nia.
Qed.

(* the routine picks the limb of 2^h that is not zero and the limb of the operand at the same
   place; when that is the low one it checks that the high limb of the operand is zero *)
Theorem ilog2_sound : hint_sound (ops_of "ilog2") 1 (fun _ => true) (fun xs => [Z.log2 (nz xs 0)]).
Proof.
  eval_ops (ops_of "ilog2"). apply sound_of_view; [reflexivity|]. intros h Hh.
  apply (masked_view _ [Push h; Dup0]
           [MovUp2; U32split; MovUp2; U32split; Dup1; Eqz; Dup0; MovDn3; CSwap; Drop; Dup1; Not; MovDn4; MovDn3; CSwap;
            MovUp3; Mul; Eqz; Assert 0; Swap; Dup0; Neg; Push 4294967296; Add; MovUp2]
           _ _ h (fun z t => h :: z :: t) Hh); [reflexivity ..|].
  intros z t Hz _ He. destruct (limbs z Hz) as (_ & Hlo & Hhi). destruct Hh as [Hh _].
  destruct (Z_lt_ge_dec h 32) as [L|G].
  - destruct (pow2_limbs_low h ltac:(lia)) as [E1 E2]. pose proof (pow2_range h 31 ltac:(lia)).
    run_view. rewrite E1, E2, (proj2 (Z.eqb_neq (2 ^ h) 0)) by lia.
    split_ifs; try done_true.
    rewrite ?flag_eqb in *. assert (F : fmul (hi32 z) (fsub 1 0) = 0) by (apply Z.eqb_eq; assumption).
    change (fsub 1 0) with 1 in F. rewrite fmul_1_r in F by (unfold canon, P; lia).
    rewrite (fadd_comm (fneg _)), fadd_fneg_small by (unfold P; lia). intros _ _ Hq.
    apply stack_eq_cons; [|apply stack_eq_refl]. symmetry.
    apply log2_low; [exact Hz | lia | exact F | apply leading_one; [lia | exact Hlo | exact Hq]].
  - destruct (pow2_limbs_high h ltac:(lia)) as [E1 E2]. pose proof (pow2_range (h - 32) 31 ltac:(lia)).
    run_view. rewrite E1, E2.
    split_ifs; try done_true.
    rewrite (fadd_comm (fneg _)), fadd_fneg_small by (unfold P; lia). intros _ _ Hq.
    apply stack_eq_cons; [|apply stack_eq_refl]. symmetry.
    apply log2_high; [exact Hz | lia | apply leading_one; [lia | exact Hhi | exact Hq]].
Qed.

