(* The module linker (Asm/Linker.v, C11): every call a compiled program makes lands in its own procedure
   table (closedness is kept by every step of lk_items), a re-export resolves to its target, and the
   order in which libraries are listed does not matter. *)
From Coq Require Import ZArith List Bool Permutation.
From MV Require Import Asm.Linker.
Import ListNotations.
Open Scope Z_scope.

(* a compiled procedure is well formed when its call set covers its own calls and is closed *)
Definition wf (cp : cproc) : Prop := closed (snd cp) (fst cp).

(* the accumulator invariant while a body is compiled: the items so far, as one block, are well
   formed *)
Definition acc_ok (acc : list code * list code) : Prop := closed (snd acc) (KSeq (fst acc)).

(* the half of [closed] that does not mention the code: the table holds every call target of its
   entries.  Enlarging a table does not keep this (a new entry brings calls of its own); joining two
   such tables does. *)
Definition self_contained (T : list code) : Prop := forall u, In u T -> incl (calls_of u) T.

Lemma contained_app T T' : self_contained T -> self_contained T' -> self_contained (T ++ T').
Proof. intros A B u [Hu|Hu]%in_app_iff; [apply incl_appl, A | apply incl_appr, B]; exact Hu. Qed.

Lemma closed_snoc T T' cs c : closed T (KSeq cs) -> closed T' c -> closed (T ++ T') (KSeq (cs ++ [c])).
Proof.
  intros [A1 A2] [B1 B2]. split; [|exact (contained_app _ _ A2 B2)].
  cbn [calls_of]. rewrite flat_map_app. cbn [flat_map]. rewrite app_nil_r.
  exact (incl_app (incl_appl _ A1) (incl_appr _ B1)).
Qed.

(* a table may list the code c itself once it holds what c calls: what CALL and procref need *)
Lemma closed_self T c c' : closed T c -> incl (calls_of c') [c] -> closed (T ++ [c]) c'.
Proof.
  intros [A1 A2] Hc. split; [exact (incl_appr _ Hc)|].
  intros u [Hu|[<-|[]]]%in_app_iff; apply incl_appl; [exact (A2 u Hu) | exact A1].
Qed.

Lemma acc_exec cp acc : wf cp -> acc_ok acc -> acc_ok (add_exec cp acc).
Proof. intros W A. exact (closed_snoc _ _ _ _ A W). Qed.

Lemma acc_call mk cp acc :
  (forall c, calls_of (mk c) = [c]) -> wf cp -> acc_ok acc -> acc_ok (add_call mk cp acc).
Proof.
  intros Hmk W A. apply (closed_snoc _ _ _ _ A), (closed_self _ _ _ W). rewrite Hmk. apply incl_refl.
Qed.

Lemma acc_ref cp acc : wf cp -> acc_ok acc -> acc_ok (add_ref cp acc).
Proof. intros W A. apply (closed_snoc _ _ _ _ A), (closed_self _ _ _ W), incl_nil_l. Qed.

Lemma acc_op k acc : acc_ok acc -> acc_ok (fst acc ++ [KOps k], snd acc).
Proof.
  intros A. rewrite <- (app_nil_r (snd acc)). apply (closed_snoc _ _ _ _ A). split; intros ? [].
Qed.

Lemma contained_table cs : Forall wf cs -> self_contained (flat_map snd cs).
Proof. induction 1 as [|cp cs [_ W] _ IH]; [intros ? [] | exact (contained_app _ _ W IH)]. Qed.

Section Closure.
Variable L : libs.
Variable kernel : list (Z * cproc).
Hypothesis kernel_wf : forall n cp, find_kernel n kernel = Some cp -> wf cp.

Section Imports.
Variable imported : Z -> Z -> option cproc.
Hypothesis imported_wf : forall m n cp, imported m n = Some cp -> wf cp.

(* every item extends the accumulator by one of the four steps above, with a procedure taken from
   the locals, the imports or the kernel *)
Lemma compile_items_ok locals : Forall wf locals ->
  forall b acc acc', acc_ok acc -> lk_items kernel locals imported b acc = Some acc' -> acc_ok acc'.
Proof.
  intros Hl. rewrite Forall_forall in Hl.
  induction b as [|it r IH]; intros acc acc' Hacc H; cbn [lk_items] in H.
  - injection H as <-. exact Hacc.
  - destruct it;
      try (match type of H with context [option_map _ ?e] => destruct e as [cp|] eqn:E end;
           cbn [option_map] in H; [|discriminate]);
      (eapply IH; [|exact H]); eauto using acc_op, acc_exec, acc_call, acc_ref, nth_error_In.
Qed.

Lemma compile_body_wf locals b cp :
  Forall wf locals -> lk_body kernel locals imported b = Some cp -> wf cp.
Proof.
  intros Hl H. unfold lk_body in H.
  destruct (lk_items kernel locals imported b ([], [])) as [[cs calls]|] eqn:E; [|discriminate].
  injection H as <-. apply (compile_items_ok _ Hl _ _ _) in E; [exact E|]. split; intros ? [].
Qed.

Lemma compile_procs_wf :
  forall ps done cs, Forall wf done -> lk_procs kernel imported ps done = Some cs -> Forall wf cs.
Proof.
  induction ps as [|p r IH]; intros done cs Hd H; cbn [lk_procs] in H.
  - injection H as <-. exact Hd.
  - destruct (lk_body kernel done imported (p_body p)) as [cp|] eqn:E; [|discriminate].
    eapply IH; [|exact H]. apply Forall_app. split; [exact Hd|]. constructor; [|constructor].
    eapply compile_body_wf; eauto.
Qed.
End Imports.

Lemma find_export_in n ps cs cp : find_export n ps cs = Some cp -> In cp cs.
Proof.
  revert cs. induction ps as [|p pr IH]; intros cs H; cbn [find_export] in H; [discriminate|].
  destruct cs as [|c cr]; [discriminate|].
  destruct (p_export p && (p_name p =? n)); [inversion H; left; reflexivity | right; apply IH; exact H].
Qed.

Lemma lookup_wf : forall fuel m n cp, lk_lookup L kernel fuel m n = Some cp -> wf cp.
Proof.
  induction fuel as [|f IH]; intros m n cp H; cbn [lk_lookup] in H; [discriminate|].
  destruct (find_mod m L) as [md|]; [|discriminate].
  destruct (forallb _ (m_reexp md)); [|discriminate].
  destruct (lk_procs kernel (lk_lookup L kernel f) (m_procs md) []) as [cs|] eqn:E; [|discriminate].
  destruct (find_reexp n (m_reexp md)) as [[m' n']|].
  - eapply IH. exact H.
  - pose proof (compile_procs_wf (lk_lookup L kernel f) IH _ _ _ (Forall_nil _) E) as Hcs.
    eapply Forall_forall; [exact Hcs|]. eapply find_export_in. exact H.
Qed.

(* C11: every call, syscall or procref target of an assembled program - directly in its code or
   in the code of anything in its table - has its body in the program's code-block table *)
Theorem program_self_contained : forall fuel ps body c T,
  lk_program L kernel fuel ps body = Some (c, T) -> closed T c.
Proof.
  intros fuel ps body c T H. unfold lk_program in H.
  destruct (lk_procs kernel (lk_lookup L kernel fuel) ps []) as [cs|] eqn:E; [|discriminate].
  destruct (lk_body kernel cs (lk_lookup L kernel fuel) body) as [[c' calls]|] eqn:E2; [|discriminate].
  injection H as <- <-.
  pose proof (compile_procs_wf (lk_lookup L kernel fuel) (lookup_wf fuel) _ _ _ (Forall_nil _) E) as Hcs.
  destruct (compile_body_wf _ (lookup_wf fuel) _ _ _ Hcs E2) as [B1 B2].
  exact (conj (incl_appr _ B1) (contained_app _ _ (contained_table _ Hcs) B2)).
Qed.
End Closure.

(* a procedure reached through a re-export is the procedure it names *)
Theorem reexport_is_target : forall L kernel f m md n m' n',
  find_mod m L = Some md -> find_reexp n (m_reexp md) = Some (m', n') ->
  forall cp, lk_lookup L kernel (S f) m n = Some cp -> lk_lookup L kernel f m' n' = Some cp.
Proof.
  intros L kernel f m md n m' n' Hm Hr cp H. cbn [lk_lookup] in H. rewrite Hm in H.
  destruct (forallb _ (m_reexp md)); [|discriminate].
  destruct (lk_procs kernel (lk_lookup L kernel f) (m_procs md) []); [|discriminate].
  rewrite Hr in H. exact H.
Qed.

(* the order in which libraries were added does not matter when module paths are distinct *)
Lemma find_mod_perm : forall (L L' : libs) m,
  Permutation L L' -> NoDup (map fst L) -> find_mod m L' = find_mod m L.
Proof.
  intros L L' m HP. induction HP as [|[k md] l l' HP IH|[k1 m1] [k2 m2] l|l1 l2 l3 H12 IH12 H23 IH23]; intros ND.
  - reflexivity.
  - cbn [find_mod]. destruct (k =? m); [reflexivity|]. apply IH. inversion ND; assumption.
  - cbn [find_mod]. destruct (k1 =? m) eqn:E1; destruct (k2 =? m) eqn:E2; try reflexivity.
    apply Z.eqb_eq in E1, E2. subst. inversion ND as [|? ? Hn _]. exfalso. apply Hn. left. reflexivity.
  - rewrite IH23, IH12; [reflexivity | exact ND |].
    eapply Permutation_NoDup; [apply Permutation_map; exact H12 | exact ND].
Qed.

(* compilation uses the imports only through their values, and the libraries only through find_mod *)
Section Ext.
Variable K : list (Z * cproc).
Variables imp imp' : Z -> Z -> option cproc.
Hypothesis E : forall m n, imp m n = imp' m n.

Lemma lk_items_ext locals : forall b acc, lk_items K locals imp b acc = lk_items K locals imp' b acc.
Proof.
  induction b as [|it r IH]; intros acc; [reflexivity|]. cbn [lk_items].
  destruct it; rewrite ?E; try apply IH; (destruct (option_map _ _); [apply IH | reflexivity]).
Qed.

Lemma lk_body_ext locals b : lk_body K locals imp b = lk_body K locals imp' b.
Proof. unfold lk_body. rewrite lk_items_ext. reflexivity. Qed.

Lemma lk_procs_ext : forall ps done, lk_procs K imp ps done = lk_procs K imp' ps done.
Proof.
  induction ps as [|p r IH]; intros done; [reflexivity|]. cbn [lk_procs].
  rewrite lk_body_ext. destruct (lk_body _ _ _ _); [apply IH | reflexivity].
Qed.
End Ext.

Lemma forallb_ext {A} (f g : A -> bool) l : (forall x, f x = g x) -> forallb f l = forallb g l.
Proof. intros E. induction l as [|x l IH]; [reflexivity|]. cbn. rewrite E, IH. reflexivity. Qed.

Lemma lk_lookup_ext (L L' : libs) K : (forall m, find_mod m L' = find_mod m L) ->
  forall fuel m n, lk_lookup L' K fuel m n = lk_lookup L K fuel m n.
Proof.
  intros Hf. induction fuel as [|f IH]; intros m n; cbn [lk_lookup]; [reflexivity|].
  rewrite Hf. destruct (find_mod m L) as [md|]; [|reflexivity]. rewrite (lk_procs_ext K _ _ IH).
  erewrite forallb_ext by (intros r; rewrite IH; reflexivity).
  destruct (forallb _ _); [|reflexivity]. destruct (lk_procs _ _ _ _); [|reflexivity].
  destruct (find_reexp n (m_reexp md)) as [[m' n']|]; [apply IH | reflexivity].
Qed.

Theorem library_order_irrelevant : forall (L L' : libs) kernel,
  Permutation L L' -> NoDup (map fst L) ->
  forall fuel ps body, lk_program L' kernel fuel ps body = lk_program L kernel fuel ps body.
Proof.
  intros L L' kernel HP ND fuel ps body. unfold lk_program.
  pose proof (lk_lookup_ext L L' kernel (fun m => find_mod_perm L L' m HP ND) fuel) as E.
  rewrite (lk_procs_ext _ _ _ E). destruct (lk_procs _ _ _ _) as [cs|]; [|reflexivity].
  rewrite (lk_body_ext _ _ _ E). reflexivity.
Qed.
