(* Instruction-level statements: what it means for the op list the assembler emits for an
   instruction to implement a documented stack effect, on every stack; how such a statement is proved on the
   zero-extended view over named operands (instr_by_view, on_stack); and the tactics of those proofs: open_instr
   (the opening), run_ops (the symbolic run), close_leaf, and solve_instr, which is the three in a row. *)
From Coq Require Import ZArith List Bool Lia String.
From MV Require Import Base.Field Core.Op Vm.Pure Vm.PureProps Gen.AsmGen Asm.SpecDefs Asm.Limbs.
Import ListNotations.
Open Scope Z_scope.

Fixpoint lookup (name : string) (t : list (string * option (list op))) : option (option (list op)) :=
  match t with
  | [] => None
  | (n, v) :: rest => if String.eqb n name then Some v else lookup name rest
  end.

(* op list the real assembler produced for this instruction text ([] if absent or rejected) *)
Definition ops_of (name : string) : list op :=
  match lookup name asm_table with Some (Some ops) => ops | _ => [] end.
Definition accepted (name : string) : bool :=
  match lookup name asm_table with Some (Some _) => true | _ => false end.
Definition rejected (name : string) : bool :=
  match lookup name asm_table with Some None => true | _ => false end.

Definition all_canon (l : list Z) : Prop := Forall canon l.

(* [instr_spec ops k pre f]: on every stack of depth >= 16 whose elements are canonical field elements,
   with xs the top k elements,
   - if [pre xs = Some e] the op list fails with e and nothing else,
   - otherwise it succeeds and the resulting stack is [f xs] on top of the remaining elements
     (as zero-extended stacks: every position, also below 15), and the depth stays >= 16. *)

Definition instr_spec (ops : list op) (k : nat) (pre : list Z -> option perr)
           (f : list Z -> list Z) : Prop :=
  forall l, (16 <= List.length l)%nat -> all_canon l ->
    match pre (firstn k l) with
    | Some e => pure_ops ops l = PErr e
    | None => exists l', pure_ops ops l = POk l' /\
                         stack_eq l' (f (firstn k l) ++ skipn k l) /\ (16 <= List.length l')%nat
    end.

(* the same under a guard on the operands: used where the documentation says the result is
   undefined outside the guard (e.g. unchecked u32 operations on values >= 2^32) *)
Definition instr_spec_g (ops : list op) (k : nat) (guard : list Z -> bool)
           (pre : list Z -> option perr) (f : list Z -> list Z) : Prop :=
  forall l, (16 <= List.length l)%nat -> all_canon l -> guard (firstn k l) = true ->
    match pre (firstn k l) with
    | Some e => pure_ops ops l = PErr e
    | None => exists l', pure_ops ops l = POk l' /\
                         stack_eq l' (f (firstn k l) ++ skipn k l) /\ (16 <= List.length l')%nat
    end.

Fixpoint has_sdepth (ops : list op) : bool :=
  match ops with
  | [] => false
  | SDepth :: _ => true
  | _ :: r => has_sdepth r
  end.

Lemma has_sdepth_false ops : has_sdepth ops = false -> ~ In SDepth ops.
Proof.
  induction ops as [|o ops IH]; intros H Hin; [exact Hin|].
  destruct Hin as [->|Hin]; [discriminate H|].
  apply IH; [destruct o; try exact H; discriminate H | exact Hin].
Qed.

(* the run on the real stack is the run on the zero-extended view *)
Lemma run_by_view ops l : has_sdepth ops = false -> (16 <= List.length l)%nat ->
  match vpure_ops ops l with
  | POk lv => exists l', pure_ops ops l = POk l' /\ stack_eq l' lv /\ (16 <= List.length l')%nat
  | PErr e => pure_ops ops l = PErr e
  end.
Proof.
  intros Hs Hl. pose proof (pure_ops_sim ops l l (has_sdepth_false _ Hs) (stack_eq_refl l)) as S.
  destruct (pure_ops ops l) as [a|e] eqn:E, (vpure_ops ops l); cbn in S; try contradiction.
  - exists a. repeat split; [exact S | eapply pure_ops_depth; eauto].
  - subst; reflexivity.
Qed.

(* [on_elems k Q]: Q holds of every list of k canonical elements.  Unfolding it names the k elements,
   so that a proof destructs no more of the stack than the instruction touches. *)
Fixpoint on_elems (k : nat) (Q : list Z -> Prop) : Prop :=
  match k with O => Q [] | S k => forall z, canon z -> on_elems k (fun xs => Q (z :: xs)) end.

Lemma on_elems_all k : forall Q, on_elems k Q -> forall xs, List.length xs = k -> Forall canon xs -> Q xs.
Proof.
  induction k as [|k IH]; intros Q H [|z xs] L C; try discriminate L; [exact H|].
  apply (IH _ (H z (Forall_inv C))); [injection L; auto | exact (Forall_inv_tail C)].
Qed.

(* a property of every stack follows from its instances on k named operands over an arbitrary rest *)
Lemma on_stack k (Q : list Z -> Prop) : (k <= 16)%nat -> on_elems k (fun xs => forall t, Q (xs ++ t)%list) ->
  forall l, (16 <= List.length l)%nat -> all_canon l -> Q l.
Proof.
  intros Hk H l Hl Hc. unfold all_canon in Hc. rewrite <- (firstn_skipn k l) in Hc |- *.
  apply (on_elems_all k _ H); [rewrite firstn_length; lia | apply Forall_app in Hc; apply Hc].
Qed.

Lemma instr_by_view ops k guard pre f : has_sdepth ops = false ->
  (forall l, (16 <= List.length l)%nat -> all_canon l -> guard (firstn k l) = true ->
     match pre (firstn k l), vpure_ops ops l with
     | Some e, r => r = PErr e
     | None, POk r => stack_eq r (f (firstn k l) ++ skipn k l)
     | None, PErr _ => False
     end) -> instr_spec_g ops k guard pre f.
Proof.
  intros Hs H l Hl Hc Hg. specialize (H l Hl Hc Hg). pose proof (run_by_view ops l Hs Hl) as R.
  destruct (pre (firstn k l)) as [e|]; [rewrite H in R; exact R|].
  destruct (vpure_ops ops l); [|contradiction]. destruct R as (l' & E & S & D).
  exists l'. repeat split; [exact E | eapply stack_eq_trans; eauto | exact D].
Qed.
Lemma instr_unguarded ops k pre f : instr_spec_g ops k (fun _ => true) pre f -> instr_spec ops k pre f.
Proof. intros H l Hl Hc. exact (H l Hl Hc eq_refl). Qed.

Ltac run_view :=
  cbv [vpure_ops pure_ops_gen vpure_op pure_op_gen vreplace gl gls nth skipn app seq map firstn
       List.length no_pre nz bin_or cond_pre u32_pre2 remove_at insert_at set_at wordn spec_dup spec_swap spec_movup spec_movdn
       spec_dupw spec_swapw spec_movupw spec_movdnw Nat.mul Nat.add Nat.sub tl hd rev].

Ltac has_var c := match c with context [?v] => is_var v end.

(* guards are conjunctions of comparisons: each becomes a hypothesis of its own *)
Ltac guard_facts :=
  repeat match goal with
         | H : _ && _ = true |- _ => apply andb_true_iff in H; destruct H
         | H : u32b _ = true |- _ => unfold u32b in H
         | H : (_ <? _) = true |- _ => apply Z.ltb_lt in H
         | H : canon _ |- _ => unfold canon in H
         end.

Ltac eval_ops o := let o' := eval vm_compute in o in change o with o'.
(* the top m elements of the stack are named z, z0, ... over a rest t *)
Ltac name_top m := refine (on_stack m _ _ _); [lia|]; cbv [on_elems Nat.add Nat.mul]; intros.

(* The opening of every proof of a specification: a closed operation list is evaluated, the view is run
   on the top m elements (m is the number of operands unless the operations reach deeper), and the
   guard and canonicity become bounds. *)
Ltac open_at m :=
  try apply instr_unguarded;
  lazymatch goal with
  | |- instr_spec_g ?o _ ?g _ _ =>
      tryif has_var o then idtac else eval_ops o;
      apply instr_by_view; [first [reflexivity | assumption]|]; name_top m; cbn [firstn skipn app nz nth no_pre];
      match goal with H : _ = true |- _ => try unfold g in H; cbn [firstn app nz nth forallb] in H end;
      guard_facts
  end.
Ltac open_instr :=
  lazymatch goal with |- instr_spec _ ?k _ _ => open_at k | |- instr_spec_g _ ?k _ _ _ => open_at k end.

(* After a symbolic run the goal is looked at, never unified with: where an operation list has changed,
   the run is stuck inside a large term, and a tactic that converts it (exact I, reflexivity, exists,
   apply stack_eq_refl) would normalise that term for minutes before it fails. *)
Ltac done_true := lazymatch goal with |- True => exact I end.
Ltac ran := lazymatch goal with |- stack_eq _ _ => idtac end.
Ltac same_stack := cbn [app]; lazymatch goal with |- stack_eq ?a ?b => constr_eq a b; apply stack_eq_refl end.

(* The evaluated operation list of the goal is [l]: the two are compared as lists.  Comparing the runs
   (change (vpure_ops _) with (vpure_ops l)) need not return where the lists differ near their end: the
   conversion then runs both and compares the symbolic states they reach. *)
Ltac ops_are l := lazymatch goal with |- context [vpure_ops ?o] => change o with l end.

(* a test on closed operands is evaluated, any other is split *)
Ltac test c := tryif has_var c then destruct c eqn:? else (let v := eval vm_compute in c in change c with v).

(* The run.  A stretch evaluates up to the first test that does not reduce and turns what the u32 operations
   left into integer arithmetic (u32_small).  The next stretch opens by rewriting the checks that the bounds
   decide: a limb is a u32, a flag is binary and is tested as the comparison it stands for.  Only where that
   finds nothing is the test that stands between the run and its result handed to [split] - never a bit that
   is merely part of the result. *)
Ltac run_with split :=
  run_view; u32_small;
  repeat (first [ progress rewrite ?u32_checked, ?flag_bin, ?flag_not, ?flag_cswap, ?flag_eqb, ?flag_eqb0 by limb_bound
                | match goal with
                  | |- context [if ?c then ?x else _] => lazymatch type of x with pres => split c end
                  end ];
          run_view; u32_small).
(* the outcome of a split test also settles the conjunctions of the specification that contain it *)
Ltac run_ops := run_with ltac:(fun c => test c; cbn [negb andb orb]).

Ltac close_leaf alg :=
  run_view;
  lazymatch goal with
  | |- PErr _ = PErr _ => reflexivity
  | |- stack_eq _ _ =>
      repeat (apply stack_eq_cons; [first [reflexivity | alg]|]); same_stack
  | |- _ => exfalso; congruence
  end.

Ltac solve_instr alg := open_instr; run_ops; close_leaf alg.
