(* Soundness of the u32 constraints that carry the element-validity check (U32SPLIT, U32MUL,
   U32MADD): with range-checked limbs the next-row cells are THE 32-bit decomposition of the exact
   integer result - in particular the non-canonical encoding result + p is rejected. *)
From Coq Require Import ZArith Lia.
From MV Require Import Base.Field Air.Expr Air.Frame Gen.AirGen.
Open Scope Z_scope.

Definition helper (e : env) (i : Z) : Z := e (HELPER_COL + i).
Definition limb (x : Z) : Prop := 0 <= x < 65536.

Lemma cong_cases x y : x == y -> 0 <= x < P -> 0 <= y < 2 * P -> y = x \/ y = x + P.
Proof.
  unfold cong. intros H Hx Hy. rewrite (Z.mod_small x) in H by lia.
  destruct (Z_lt_ge_dec y P) as [L|G].
  - left. rewrite (Z.mod_small y) in H by lia. lia.
  - right. assert (E : y mod P = y - P).
    { symmetry. apply (Z.mod_unique y P 1 (y - P)); lia. }
    lia.
Qed.

Lemma cong_canon_eq x y : x == y -> 0 <= x < P -> 0 <= y < P -> x = y.
Proof. unfold cong. intros H Hx Hy. rewrite !Z.mod_small in H by lia. exact H. Qed.

(* a value of the form 2^32 hi + lo (32-bit halves) that is at least p has hi = 2^32 - 1, lo >= 1 *)
Lemma above_p hi lo : 0 <= hi < TWO32 -> 0 <= lo < TWO32 -> P <= TWO32 * hi + lo ->
  hi = 4294967295 /\ 1 <= lo.
Proof. unfold TWO32, P. lia. Qed.

Section Validity.
Variable e : env.
Let h0 := helper e 0. Let h1 := helper e 1. Let h2 := helper e 2. Let h3 := helper e 3.
Let m := helper e 4.
Let vlo := 65536 * h1 + h0.
Let vhi := 65536 * h3 + h2.

(* the common core: r is the exact result (0 <= r < p), the limbs compose to something congruent
   to r, the validity constraint holds and the next cells are the limb aggregates *)
Lemma decomposition_unique r :
  limb h0 -> limb h1 -> limb h2 -> limb h3 ->
  0 <= r < P ->
  r == TWO32 * vhi + vlo ->
  (1 - m * (4294967295 - vhi)) * vlo == 0 ->
  canon (snxt e 0) -> canon (snxt e 1) ->
  snxt e 0 == vhi -> snxt e 1 == vlo ->
  snxt e 0 = r / TWO32 /\ snxt e 1 = r mod TWO32.
Proof.
  unfold limb, canon. intros L0 L1 L2 L3 Hr A3 A4 C0 C1 A2 A1.
  assert (Blo : 0 <= vlo < TWO32) by (unfold vlo, TWO32; lia).
  assert (Bhi : 0 <= vhi < TWO32) by (unfold vhi, TWO32; lia).
  apply cong_canon_eq in A2, A1; try assumption; try (unfold TWO32, P in *; lia). rewrite A2, A1.
  destruct (cong_cases _ _ A3 Hr) as [E|E]; [unfold TWO32, P in *; lia | |].
  - (* the canonical encoding *)
    rewrite <- E. split; [apply Z.div_unique_pos with vlo | apply Z.mod_unique_pos with vhi]; auto.
  - (* the alias r + p is excluded by the validity constraint *)
    exfalso. destruct (above_p vhi vlo Bhi Blo ltac:(lia)) as [Ehi Hlo].
    rewrite Ehi, Z.sub_diag, Z.mul_0_r, Z.sub_0_r, Z.mul_1_l in A4.
    apply cong_canon_eq in A4; unfold TWO32, P in *; lia.
Qed.
End Validity.

Ltac u32_cells e := unfold helper in *; cells e; unfold TWO32.

Theorem u32madd_sound : forall e, row_has_op e 78 -> constraints_hold e ->
  limb (helper e 0) -> limb (helper e 1) -> limb (helper e 2) -> limb (helper e 3) ->
  0 <= scur e 0 < TWO32 -> 0 <= scur e 1 < TWO32 -> 0 <= scur e 2 < TWO32 ->
  canon (snxt e 0) -> canon (snxt e 1) ->
  snxt e 0 = (scur e 0 * scur e 1 + scur e 2) / TWO32 /\
  snxt e 1 = (scur e 0 * scur e 1 + scur e 2) mod TWO32.
Proof.
  intros e Ha Hc L0 L1 L2 L3 Ba Bb Bc C0 C1.
  open_residuals e 78 Ha Hc.
  apply (decomposition_unique e); try assumption; [unfold TWO32, P in *; nia | ..]; u32_cells e; by_residual.
Qed.

Theorem u32mul_sound : forall e, row_has_op e 68 -> constraints_hold e ->
  limb (helper e 0) -> limb (helper e 1) -> limb (helper e 2) -> limb (helper e 3) ->
  0 <= scur e 0 < TWO32 -> 0 <= scur e 1 < TWO32 ->
  canon (snxt e 0) -> canon (snxt e 1) ->
  snxt e 0 = (scur e 0 * scur e 1) / TWO32 /\ snxt e 1 = (scur e 0 * scur e 1) mod TWO32.
Proof.
  intros e Ha Hc L0 L1 L2 L3 Ba Bb C0 C1.
  open_residuals e 68 Ha Hc.
  apply (decomposition_unique e); try assumption; [unfold TWO32, P in *; nia | ..]; u32_cells e; by_residual.
Qed.

Theorem u32split_sound : forall e, row_has_op e 72 -> constraints_hold e ->
  limb (helper e 0) -> limb (helper e 1) -> limb (helper e 2) -> limb (helper e 3) ->
  canon (scur e 0) -> canon (snxt e 0) -> canon (snxt e 1) ->
  snxt e 0 = scur e 0 / TWO32 /\ snxt e 1 = scur e 0 mod TWO32.
Proof.
  intros e Ha Hc L0 L1 L2 L3 Ca C0 C1.
  open_residuals e 72 Ha Hc. apply (decomposition_unique e); try assumption; u32_cells e; by_residual.
Qed.
