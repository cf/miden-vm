(* Stack-depth bookkeeping: vb0 (depth) and position 15 under left shifts, vb0 and b1 (overflow
   address) under right shifts, vb0 under no shift - for the opcodes listed under each class. *)
From Coq Require Import ZArith List Bool.
From MV Require Import Air.Expr Air.Frame Air.SystemSound Gen.AirGen.
Import ListNotations.
Open Scope Z_scope.

Definition left_shift_ok (code : Z) : Prop :=
  forall e, row_has_op e code -> constraints_hold e ->
    (cur e B0_COL == 16 -> nxt e B0_COL == 16 /\ snxt e 15 == 0) /\
    (~ cur e B0_COL == 16 -> nxt e B0_COL == cur e B0_COL - 1).

Definition right_shift_ok (code : Z) : Prop :=
  forall e, row_has_op e code -> constraints_hold e ->
    nxt e B0_COL == cur e B0_COL + 1 /\ nxt e B1_COL == cur e CLK_COL.

Definition no_shift_ok (code : Z) : Prop :=
  forall e, row_has_op e code -> constraints_hold e -> nxt e B0_COL == cur e B0_COL.

Lemma left_shift_algebra b0 b0' h0 n15 :
  b0' - b0 + (b0 - 16) * h0 == 0 ->
  (1 - (b0 - 16) * h0) * (b0 - 16) == 0 ->
  (1 - (b0 - 16) * h0) * n15 == 0 ->
  (b0 == 16 -> b0' == 16 /\ n15 == 0) /\ (~ b0 == 16 -> b0' == b0 - 1).
Proof.
  intros H1 H2 H4. split.
  - intros E. rewrite E in H1, H4. split.
    + apply (cong_zero_eq b0' 16 _ H1). ring.
    + apply (cong_zero_eq n15 0 _ H4). ring.
  - intros NE. apply cong_mul_zero in H2. destruct H2 as [A|B].
    + apply cong_of_sub in A. rewrite <- A in H1. apply (cong_zero_eq b0' (b0 - 1) _ H1). ring.
    + exfalso. apply NE. apply cong_of_sub. exact B.
Qed.

(* The overflow constraints specialise to the same expressions for every opcode of a class, so a
   class is settled by finding those expressions among the residuals of each of its opcodes (a
   computation) and the algebra above (once). *)
Fixpoint expr_eqb (x y : expr) : bool :=
  match x, y with
  | EConst a, EConst b | EVar a, EVar b => a =? b
  | EAdd a b, EAdd c d | ESub a b, ESub c d | EMul a b, EMul c d => expr_eqb a c && expr_eqb b d
  | ENeg a, ENeg b => expr_eqb a b
  | _, _ => false
  end.

Lemma expr_eqb_eq x : forall y, expr_eqb x y = true -> x = y.
Proof.
  induction x; intros [] H; try discriminate H; cbn [expr_eqb] in H;
    try (apply andb_true_iff in H; destruct H); try apply Z.eqb_eq in H; f_equal; auto.
Qed.

Definition has_residuals (xs : list expr) (code : Z) : bool :=
  let rs := residuals_t air_nodes air_main (pe_op code) NSTACK in
  forallb (fun x => existsb (expr_eqb x) rs) xs.

Lemma has_residuals_vanish xs codes code e :
  forallb (has_residuals xs) codes = true -> In code codes ->
  row_has_op e code -> constraints_hold e -> Forall (fun x => eeval e x == 0) xs.
Proof.
  intros Hall Hin Ha Hc. rewrite forallb_forall in Hall. specialize (Hall code Hin).
  unfold has_residuals in Hall. rewrite forallb_forall in Hall.
  pose proof (residuals_t_vanish air_nodes air_main e (pe_op code) NSTACK _ eq_refl Ha Hc) as HR.
  rewrite Forall_forall in HR.
  apply Forall_forall. intros x Hx. specialize (Hall x Hx). apply existsb_exists in Hall.
  destruct Hall as [y [Hy E]]. apply expr_eqb_eq in E. subst y. exact (HR x Hy).
Qed.

Definition vb0 : expr := EVar B0_COL.
Definition vb0' : expr := EVar (TRACE_WIDTH + B0_COL).
Definition vh0 : expr := EVar H0_COL.
Definition at16 : expr := EMul (ESub vb0 (EConst 16)) vh0.        (* (vb0 - 16) vh0: 0 at depth 16, else 1 *)

Ltac shift_class xs :=
  apply Forall_forall; intros code Hin e Ha Hc;
  assert (HR : Forall (fun x => eeval e x == 0) xs)
    by (apply (has_residuals_vanish xs _ code e) in Hin; [assumption | vm_compute; reflexivity | assumption ..]);
  cbv [vb0 vb0' vh0 at16] in HR; name_residuals HR; cells e.

Theorem left_shift_ops :
  Forall left_shift_ok [32; 33; 34; 35; 36; 37; 38; 39; 41; 42; 43; 44; 45; 46; 47; 76; 78; 84; 85].
Proof.
  shift_class [EAdd (ESub vb0' vb0) at16; EMul (ESub (EConst 1) at16) (ESub vb0 (EConst 16));
               EMul (ESub (EConst 1) at16) (EVar (TRACE_WIDTH + STACK_COL + 15))].
  apply (left_shift_algebra _ _ (e 50)); assumption.
Qed.

Theorem right_shift_ops :
  Forall right_shift_ok [48; 49; 50; 51; 52; 53; 54; 55; 56; 57; 58; 59; 60; 61; 62; 63; 72; 100].
Proof.
  shift_class [ESub (ESub vb0' vb0) (EConst 1); ESub (EVar (TRACE_WIDTH + B1_COL)) (EVar CLK_COL)].
  split; by_residual.
Qed.

Theorem no_shift_ops :
  Forall no_shift_ok [0; 1; 2; 3; 4; 5; 6; 7; 8; 10; 11; 12; 13; 24; 25; 28; 29; 30; 64; 66; 68; 70; 74; 80; 86; 87].
Proof. shift_class [ESub vb0' vb0]. by_residual. Qed.
