(* Frames of the processor AIR: variable layout of the generated constraint DAG, the partial
   assignment that fixes the opcode, and the residual constraints of an opcode. *)
From Coq Require Import ZArith List Bool.
From MV Require Import Base.Field Air.Expr Gen.AirGen.
Import ListNotations.
Open Scope Z_scope.

Definition bit (code i : Z) : Z := Z.land (Z.shiftr code i) 1.

(* op bits, plus the two degree-reduction columns e0 = b6 (1 - b5) b4 and e1 = b6 b5 *)
Definition pe_op (code : Z) : penv := fun v =>
  if (OP_BITS_COL <=? v) && (v <? OP_BITS_COL + 7) then Some (bit code (v - OP_BITS_COL))
  else if v =? OP_EXTRA_COL then Some (bit code 6 * (1 - bit code 5) * bit code 4)
  else if v =? OP_EXTRA_COL + 1 then Some (bit code 6 * bit code 5)
  else None.

(* the row pair says "this row executes opcode [code]" *)
Definition row_has_op (e : env) (code : Z) : Prop := agrees e (pe_op code).

(* generic in the DAG and its roots, so that no proof term mentions the generated constants *)
Section Generic.
Variable nodes : list node.
Variable roots : list Z.

Definition holds_g (e : env) : Prop :=
  forall k, (k < length roots)%nat -> nth_z (eval_nodes e nodes) (nth k roots 0) = 0.

Definition residuals_g (pe : penv) : list expr :=
  let es := pe_nodes pe nodes in map (fun r => nth (Z.to_nat r) es (EConst 0)) roots.

Lemma residuals_g_sound e pe k :
  agrees e pe -> (k < length roots)%nat ->
  eeval e (nth k (residuals_g pe) (EConst 0)) == nth_z (eval_nodes e nodes) (nth k roots 0).
Proof.
  intros Ha Hk.
  set (f := fun r => nth (Z.to_nat r) (pe_nodes pe nodes) (EConst 0)).
  rewrite (nth_indep (map f roots) (EConst 0) (f 0)) by (rewrite map_length; exact Hk).
  rewrite map_nth. apply pe_sound. exact Ha.
Qed.

Definition nonzero (x : expr) : bool := match x with EConst 0 => false | _ => true end.

(* the first [n] of [residuals_g pe], trivial ones dropped, computed with the trie evaluator
   ([pe_roots], Expr.v): this is what the proofs about concrete opcodes evaluate *)
Definition residuals_t (pe : penv) (n : nat) : list expr :=
  filter nonzero (firstn n (pe_roots pe nodes roots)).

Lemma residuals_t_vanish e pe n rs :
  residuals_t pe n = rs -> agrees e pe -> holds_g e -> Forall (fun r => eeval e r == 0) rs.
Proof.
  intros <- Ha Hc. unfold residuals_t. rewrite pe_roots_spec.
  apply incl_Forall with (residuals_g pe).
  { eapply incl_tran; [apply incl_filter|]. intros x Hx. rewrite <- (firstn_skipn n). apply in_or_app. left. exact Hx. }
  unfold residuals_g. apply Forall_map, Forall_forall. intros r Hr. apply In_nth with (d := 0) in Hr. destruct Hr as [k [Hk <-]].
  eapply cong_trans; [apply pe_sound, Ha|]. fold (nth_z (eval_nodes e nodes) (nth k roots 0)).
  rewrite (Hc k Hk). reflexivity.
Qed.
End Generic.

(* all main transition constraints vanish on the frame *)
Definition constraints_hold (e : env) : Prop := holds_g air_nodes air_main e.

(* the system and stack constraints come first in the AIR's ordering *)
Definition NSTACK : nat := NUM_SYS_STACK_CONSTRAINTS.

Definition cur (e : env) (c : Z) : Z := e c.
Definition nxt (e : env) (c : Z) : Z := e (TRACE_WIDTH + c).
Definition scur (e : env) (i : Z) : Z := e (STACK_COL + i).
Definition snxt (e : env) (i : Z) : Z := e (TRACE_WIDTH + STACK_COL + i).
Definition scurs (e : env) : list Z := map (fun i => scur e (Z.of_nat i)) (seq 0 16).
Definition snxts (e : env) (n : nat) : list Z := map (fun i => snxt e (Z.of_nat i)) (seq 0 n).

Lemma cong_of_sub a b : a - b == 0 -> a == b.
Proof. intros H. replace a with (a - b + b) by ring. rewrite H. reflexivity. Qed.

Lemma cong_zero_eq a b t : t == 0 -> a - b = t -> a == b.
Proof. intros H E. apply cong_of_sub. rewrite E. exact H. Qed.

(* cell accessors such as [snxt e 3] become [e 105], in the goal and the hypotheses *)
Ltac cells e :=
  cbv [scur snxt cur nxt STACK_COL TRACE_WIDTH CLK_COL FMP_COL B0_COL B1_COL H0_COL HELPER_COL] in *;
  repeat match goal with
         | |- context [e (?a + ?b)] => let z := eval vm_compute in (a + b) in change (a + b) with z
         | H : context [e (?a + ?b)] |- _ => let z := eval vm_compute in (a + b) in change (a + b) with z in H
         end.

(* HR : Forall (fun r => eeval e r == 0) [r1; ...; rn]  becomes  R : r1 == 0, R0 : r2 == 0, ... *)
Ltac name_residuals HR :=
  apply Forall_fold_right in HR; cbn [fold_right eeval] in HR;
  repeat lazymatch type of HR with _ /\ _ => let H := fresh "R" in destruct HR as [H HR] end;
  clear HR.

(* [open_residuals_of e pe n Ha Hc]: the first n constraints specialised by pe, computed once, become
   hypotheses R, R0, ... of the form  polynomial in the cells of e == 0;
   [open_residuals e code Ha Hc]: the residual system and stack constraints of opcode [code] *)
Ltac open_residuals_of e pe n Ha Hc :=
  let HR := fresh "HR" in
  epose proof (residuals_t_vanish air_nodes air_main e pe n _ ltac:(vm_compute; reflexivity) Ha Hc) as HR;
  name_residuals HR.
Ltac open_residuals e code Ha Hc := open_residuals_of e (pe_op code) NSTACK Ha Hc.

(* solves  ?x == y  by instantiating ?x with y stripped of its reductions mod p *)
Ltac unmod :=
  lazymatch goal with
  | |- _ == fadd _ _ => eapply cong_unmod, cong_add; unmod
  | |- _ == fsub _ _ => eapply cong_unmod, cong_sub; unmod
  | |- _ == fmul _ _ => eapply cong_unmod, cong_mul; unmod
  | |- _ == fneg _ => eapply cong_unmod, cong_opp; unmod
  | |- _ => apply cong_refl
  end.

(* a goal  a == y : y is stripped of its reductions, and among the hypotheses t == 0 that mention a
   one is  a - y == 0  as it stands (a cell that is only moved) or gives  a - y = +-t  as a polynomial
   identity *)
Ltac by_residual :=
  eapply cong_trans; [|unmod];
  lazymatch goal with
  | |- ?a == ?y =>
      match goal with
      | H : ?t == 0 |- _ =>
          lazymatch t with context [a] => idtac end;
          first [ exact (cong_of_sub a y H)
                | apply (cong_zero_eq a y t H); ring | symmetry; apply (cong_zero_eq y a t H); ring ]
      end
  end.
