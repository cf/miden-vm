(* Lookup arguments between trace components (C12): what "requests and responses balance" means
   for a running-product bus, for a LogUp running sum and for a virtual table, and why balance
   gives the specified terminal value of the auxiliary column for EVERY challenge. *)
From Coq Require Import ZArith List Bool Permutation.
From MV Require Import Base.Field Base.Prime.
Import ListNotations.
Open Scope Z_scope.

(* a row of a bus is a tuple of field elements; it is compressed with the challenges *)
Definition row := list Z.

Fixpoint combine_row (alphas : list Z) (r : row) : Z :=
  match alphas, r with
  | a :: al, x :: rl => fadd (fmul a x) (combine_row al rl)
  | _, _ => 0
  end.
(* alpha_0 + sum alpha_{i+1} * r_i *)
Definition encode (alphas : list Z) (r : row) : Z :=
  match alphas with
  | a0 :: al => fadd a0 (combine_row al r)
  | [] => 0
  end.

Definition fprod (l : list Z) : Z := fold_right fmul 1 l.
Definition fsum (l : list Z) : Z := fold_right fadd 0 l.

Lemma fprod_perm l1 l2 : Permutation l1 l2 -> fprod l1 = fprod l2.
Proof. apply fold_right_perm. intros a b c. rewrite !fmul_assoc, (fmul_comm a b). reflexivity. Qed.

Lemma fsum_perm l1 l2 : Permutation l1 l2 -> fsum l1 = fsum l2.
Proof. apply fold_right_perm. intros a b c. rewrite !fadd_assoc, (fadd_comm a b). reflexivity. Qed.

Theorem bus_balanced : forall alphas (requests responses : list row),
  Permutation requests responses ->
  fprod (map (encode alphas) requests) = fprod (map (encode alphas) responses).
Proof. intros alphas rq rs H. apply fprod_perm. apply Permutation_map. exact H. Qed.

(* the column b is multiplied by the responses and divided by the requests of each row; with
   q = product of all requests and s = product of all responses its last value v satisfies
   v * q = b0 * s; so a balanced bus with q invertible ends where it started *)
Theorem bus_terminal : forall alphas requests responses b0 v,
  Permutation requests responses ->
  fmul v (fprod (map (encode alphas) requests)) = fmul b0 (fprod (map (encode alphas) responses)) ->
  forall qinv, fmul (fprod (map (encode alphas) requests)) qinv = 1 ->
  fmul v 1 = fmul b0 1.
Proof.
  intros alphas rq rs b0 v HP Hv qinv Hq.
  rewrite <- (bus_balanced alphas rq rs HP) in Hv.
  rewrite <- Hq. rewrite !fmul_assoc. rewrite Hv. reflexivity.
Qed.

(* LogUp (range checker): sum of multiplicity / (alpha - value) *)
Theorem logup_balanced : forall (term : Z -> Z) (lookups table : list Z),
  Permutation lookups table -> fsum (map term lookups) = fsum (map term table).
Proof. intros term a b H. apply fsum_perm. apply Permutation_map. exact H. Qed.

Inductive event : Type := Add (r : row) | Remove (r : row).

Definition row_eqb (a b : row) : bool :=
  (Nat.eqb (length a) (length b)) && forallb (fun p => fst p =? snd p) (combine a b).

Lemma row_eqb_eq a : forall b, row_eqb a b = true -> a = b.
Proof.
  unfold row_eqb. induction a as [|x a IH]; intros [|y b] H; cbn in H; try discriminate; [reflexivity|].
  apply andb_true_iff in H. destruct H as [Hl H]. apply andb_true_iff in H. destruct H as [Hx Hr].
  apply Z.eqb_eq in Hx. subst y. f_equal. apply IH. rewrite Hl, Hr. reflexivity.
Qed.

(* a stack-like table (block stack, overflow table): a row can only be removed from the top *)
Fixpoint run_stack (evs : list event) (st : list row) : option (list row) :=
  match evs with
  | [] => Some st
  | Add r :: rest => run_stack rest (r :: st)
  | Remove r :: rest =>
      match st with
      | top :: st' => if row_eqb r top then run_stack rest st' else None
      | [] => None
      end
  end.

Definition adds (evs : list event) : list row :=
  flat_map (fun e => match e with Add r => [r] | Remove _ => [] end) evs.
Definition removes (evs : list event) : list row :=
  flat_map (fun e => match e with Remove r => [r] | Add _ => [] end) evs.

Lemma run_stack_perm : forall evs st st',
  run_stack evs st = Some st' -> Permutation (adds evs ++ st) (removes evs ++ st').
Proof.
  induction evs as [|e evs IH]; intros st st' H; cbn [run_stack adds removes flat_map app] in *.
  - inversion H; subst. apply Permutation_refl.
  - destruct e as [r|r]; cbn [app].
    + specialize (IH _ _ H).
      eapply Permutation_trans; [|exact IH]. apply Permutation_cons_app. apply Permutation_refl.
    + destruct st as [|top st0]; [discriminate|].
      destruct (row_eqb r top) eqn:E; [|discriminate]. apply row_eqb_eq in E. subst top.
      specialize (IH _ _ H).
      eapply Permutation_trans; [apply Permutation_sym; apply Permutation_middle|].
      apply Permutation_cons; [reflexivity | exact IH].
Qed.

(* a table that starts and ends empty has added exactly what it removed, so its running product
   column returns to its initial value for every challenge *)
Theorem table_returns : forall alphas evs,
  run_stack evs [] = Some [] ->
  fprod (map (encode alphas) (adds evs)) = fprod (map (encode alphas) (removes evs)).
Proof.
  intros alphas evs H. apply bus_balanced.
  pose proof (run_stack_perm evs [] [] H) as P. rewrite !app_nil_r in P. exact P.
Qed.

(* non-vacuity *)
Example table_sample : run_stack [Add [1; 2]; Add [3; 4]; Remove [3; 4]; Add [5; 6]; Remove [5; 6]; Remove [1; 2]] [] = Some [].
Proof. reflexivity. Qed.
