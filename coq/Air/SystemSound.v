(* Soundness of the constraints for the system operations (CLK, SDEPTH, FMPADD, FMPUPDATE, ASSERT), the
   clock and the operand checks (binary operands), using primality of the modulus. *)
From Coq Require Import ZArith List.
From MV Require Import Base.Prime Air.Expr Air.Frame Gen.AirGen.
Import ListNotations.
Open Scope Z_scope.

Lemma cong_mul_zero a b : a * b == 0 -> a == 0 \/ b == 0.
Proof.
  apply P_no_zero_div.
Qed.

Lemma cong_binary x : x * x - x == 0 -> x == 0 \/ x == 1.
Proof.
  intros H. replace (x * x - x) with (x * (x - 1)) in H by ring.
  apply cong_mul_zero in H. destruct H as [H|H]; [left; exact H|right].
  apply cong_of_sub. exact H.
Qed.

(* the clock advances by one on every row, whatever the operation: the first constraint carries no
   operation flag *)
Definition pe_none : penv := fun _ => None.
Lemma agrees_none e : agrees e pe_none. Proof. intros v c H. discriminate H. Qed.

Theorem clk_increments : forall e, constraints_hold e -> nxt e CLK_COL == cur e CLK_COL + 1.
Proof.
  intros e Hc. open_residuals_of e pe_none 1%nat (agrees_none e) Hc. cells e. by_residual.
Qed.

(* CLK pushes the clock of its own row, SDEPTH the depth, FMPADD adds fmp, FMPUPDATE moves fmp,
   ASSERT needs 1 on top *)
Theorem clk_op_sound : forall e, row_has_op e 63 -> constraints_hold e ->
  snxt e 0 == cur e CLK_COL /\ nxt e CLK_COL == cur e CLK_COL + 1 /\
  Forall2 cong (map (fun i => snxt e (Z.of_nat i)) (seq 1 15)) (map (fun i => scur e (Z.of_nat i)) (seq 0 15)).
Proof.
  intros e Ha Hc. open_residuals e 63 Ha Hc. cells e.
  split; [by_residual|]. split; [exact (clk_increments e Hc)|].
  cbv [map seq Z.of_nat Pos.of_succ_nat Pos.succ]. cells e.
  repeat (apply Forall2_cons; [by_residual|]). apply Forall2_nil.
Qed.

Theorem sdepth_op_sound : forall e, row_has_op e 62 -> constraints_hold e ->
  snxt e 0 == cur e B0_COL.
Proof. intros e Ha Hc. open_residuals e 62 Ha Hc. cells e. by_residual. Qed.

Theorem fmpadd_op_sound : forall e, row_has_op e 6 -> constraints_hold e ->
  snxt e 0 == scur e 0 + cur e FMP_COL.
Proof. intros e Ha Hc. open_residuals e 6 Ha Hc. cells e. by_residual. Qed.

Theorem fmpupdate_op_sound : forall e, row_has_op e 47 -> constraints_hold e ->
  nxt e FMP_COL == cur e FMP_COL + scur e 0.
Proof. intros e Ha Hc. open_residuals e 47 Ha Hc. cells e. by_residual. Qed.

Theorem assert_op_sound : forall e, row_has_op e 32 -> constraints_hold e -> scur e 0 == 1.
Proof. intros e Ha Hc. open_residuals e 32 Ha Hc. cells e. by_residual. Qed.

(* operands that must be binary are binary in every accepted row: x (x - 1) is among the residuals *)
Theorem not_operand_binary : forall e, row_has_op e 5 -> constraints_hold e ->
  scur e 0 == 0 \/ scur e 0 == 1.
Proof. intros e Ha Hc. open_residuals e 5 Ha Hc. cells e. apply cong_binary; by_residual. Qed.

Theorem and_operands_binary : forall e, row_has_op e 36 -> constraints_hold e ->
  (scur e 0 == 0 \/ scur e 0 == 1) /\ (scur e 1 == 0 \/ scur e 1 == 1).
Proof. intros e Ha Hc. open_residuals e 36 Ha Hc. cells e. split; apply cong_binary; by_residual. Qed.

Theorem or_operands_binary : forall e, row_has_op e 37 -> constraints_hold e ->
  (scur e 0 == 0 \/ scur e 0 == 1) /\ (scur e 1 == 0 \/ scur e 1 == 1).
Proof. intros e Ha Hc. open_residuals e 37 Ha Hc. cells e. split; apply cong_binary; by_residual. Qed.

Theorem cswap_condition_binary : forall e, row_has_op e 42 -> constraints_hold e ->
  scur e 0 == 0 \/ scur e 0 == 1.
Proof. intros e Ha Hc. open_residuals e 42 Ha Hc. cells e. apply cong_binary; by_residual. Qed.

Theorem cswapw_condition_binary : forall e, row_has_op e 43 -> constraints_hold e ->
  scur e 0 == 0 \/ scur e 0 == 1.
Proof. intros e Ha Hc. open_residuals e 43 Ha Hc. cells e. apply cong_binary; by_residual. Qed.
