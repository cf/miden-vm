(* Reified arithmetic over Goldilocks: the AIR's constraint system as a DAG of nodes (generated
   into Gen/AirGen.v by the translator), its evaluation, and a partial evaluator that folds known
   cells (op bits) into the expressions: pe_nodes, which the statements of C03/C04 mention and
   pe_sound is about, and pe_roots, which computes the same expressions over a trie (pe_roots_spec)
   and is what the proofs evaluate. *)
From Coq Require Import ZArith List Bool Lia Morphisms FMapPositive.
From MV Require Import Base.Field.
Import ListNotations.
Open Scope Z_scope.

Inductive node : Type :=
| NConst (c : Z) | NVar (v : Z) | NAdd (a b : Z) | NSub (a b : Z) | NMul (a b : Z) | NNeg (a : Z).

Inductive expr : Type :=
| EConst (c : Z) | EVar (v : Z) | EAdd (a b : expr) | ESub (a b : expr) | EMul (a b : expr) | ENeg (a : expr).

Definition env := Z -> Z.

(* evaluation of the DAG: the value of every node, in order, reduced mod p *)
Definition nth_z (l : list Z) (i : Z) : Z := nth (Z.to_nat i) l 0.

Definition nval (e : env) (vals : list Z) (n : node) : Z :=
  match n with
  | NConst c => c mod P
  | NVar v => e v mod P
  | NAdd a b => (nth_z vals a + nth_z vals b) mod P
  | NSub a b => (nth_z vals a - nth_z vals b) mod P
  | NMul a b => (nth_z vals a * nth_z vals b) mod P
  | NNeg a => (- nth_z vals a) mod P
  end.

Fixpoint eval_from (e : env) (nodes : list node) (vals : list Z) : list Z :=
  match nodes with
  | [] => vals
  | n :: rest => eval_from e rest (vals ++ [nval e vals n])
  end.
Definition eval_nodes (e : env) (nodes : list node) : list Z := eval_from e nodes [].

Fixpoint eeval (e : env) (x : expr) : Z :=
  match x with
  | EConst c => c
  | EVar v => e v
  | EAdd a b => eeval e a + eeval e b
  | ESub a b => eeval e a - eeval e b
  | EMul a b => eeval e a * eeval e b
  | ENeg a => - eeval e a
  end.

Definition cong (x y : Z) : Prop := x mod P = y mod P.
Notation "x == y" := (cong x y) (at level 70).

Lemma cong_refl x : x == x. Proof. reflexivity. Qed.
Lemma cong_sym x y : x == y -> y == x. Proof. unfold cong; congruence. Qed.
Lemma cong_trans x y z : x == y -> y == z -> x == z. Proof. unfold cong; congruence. Qed.
Lemma cong_mod x : x mod P == x. Proof. apply Z.mod_mod. discriminate. Qed.
Lemma cong_unmod x y : x == y -> x == y mod P. Proof. unfold cong. rewrite Z.mod_mod by discriminate. auto. Qed.
Lemma cong_add a b c d : a == b -> c == d -> a + c == b + d.
Proof. unfold cong. intros H1 H2. rewrite (Z.add_mod a c), (Z.add_mod b d), H1, H2 by discriminate. reflexivity. Qed.
Lemma cong_sub a b c d : a == b -> c == d -> a - c == b - d.
Proof. unfold cong. intros H1 H2. rewrite (Zminus_mod a c), (Zminus_mod b d), H1, H2. reflexivity. Qed.
Lemma cong_mul a b c d : a == b -> c == d -> a * c == b * d.
Proof. unfold cong. intros H1 H2. rewrite (Z.mul_mod a c), (Z.mul_mod b d), H1, H2 by discriminate. reflexivity. Qed.
Lemma cong_opp a b : a == b -> - a == - b.
Proof. intros H. change (- a) with (0 - a). change (- b) with (0 - b). apply cong_sub; [apply cong_refl | exact H]. Qed.

#[global] Instance cong_equiv : Equivalence cong.
Proof. split; [intros x; apply cong_refl | intros x y; apply cong_sym | intros x y z; apply cong_trans]. Qed.
#[global] Instance add_proper : Proper (cong ==> cong ==> cong) Z.add.
Proof. intros a b H c d H2. apply cong_add; assumption. Qed.
#[global] Instance sub_proper : Proper (cong ==> cong ==> cong) Z.sub.
Proof. intros a b H c d H2. apply cong_sub; assumption. Qed.
#[global] Instance mul_proper : Proper (cong ==> cong ==> cong) Z.mul.
Proof. intros a b H c d H2. apply cong_mul; assumption. Qed.
#[global] Instance opp_proper : Proper (cong ==> cong) Z.opp.
Proof. intros a b H. apply cong_opp; assumption. Qed.

(* smart constructors: constant folding with the absorbing / neutral elements *)
Definition is_c (x : expr) (k : Z) : bool := match x with EConst c => c =? k | _ => false end.

Definition mkAdd (a b : expr) : expr :=
  match a, b with
  | EConst x, EConst y => EConst ((x + y) mod P)
  | _, _ => if is_c a 0 then b else if is_c b 0 then a else EAdd a b
  end.
Definition mkSub (a b : expr) : expr :=
  match a, b with
  | EConst x, EConst y => EConst ((x - y) mod P)
  | _, _ => if is_c b 0 then a else ESub a b
  end.
Definition mkMul (a b : expr) : expr :=
  match a, b with
  | EConst x, EConst y => EConst ((x * y) mod P)
  | _, _ => if is_c a 0 || is_c b 0 then EConst 0
            else if is_c a 1 then b else if is_c b 1 then a else EMul a b
  end.
Definition mkNeg (a : expr) : expr :=
  match a with EConst x => EConst ((- x) mod P) | _ => ENeg a end.

Lemma is_c_spec x k : is_c x k = true -> x = EConst k.
Proof. destruct x; cbn; try discriminate. intros H. apply Z.eqb_eq in H. subst. reflexivity. Qed.

Ltac smart_cases :=
  repeat match goal with
         | |- context [?c =? ?k] => destruct (Z.eqb_spec c k); subst; cbn [orb eeval]
         end;
  cbn [eeval]; first [apply cong_mod | (unfold cong; f_equal; lia)].

Lemma mkAdd_sound e a b : eeval e (mkAdd a b) == eeval e a + eeval e b.
Proof. unfold mkAdd. destruct a; destruct b; cbn [is_c orb eeval]; smart_cases. Qed.
Lemma mkSub_sound e a b : eeval e (mkSub a b) == eeval e a - eeval e b.
Proof. unfold mkSub. destruct a; destruct b; cbn [is_c orb eeval]; smart_cases. Qed.
Lemma mkMul_sound e a b : eeval e (mkMul a b) == eeval e a * eeval e b.
Proof. unfold mkMul. destruct a; destruct b; cbn [is_c orb eeval]; smart_cases. Qed.
Lemma mkNeg_sound e a : eeval e (mkNeg a) == - eeval e a.
Proof. destruct a; cbn [mkNeg eeval]; try apply cong_refl. apply cong_mod. Qed.

Definition penv := Z -> option Z.
Definition nth_e (l : list expr) (i : Z) : expr := nth (Z.to_nat i) l (EConst 0).

Definition pe_node (pe : penv) (es : list expr) (n : node) : expr :=
  match n with
  | NConst c => EConst (c mod P)
  | NVar v => match pe v with Some c => EConst (c mod P) | None => EVar v end
  | NAdd a b => mkAdd (nth_e es a) (nth_e es b)
  | NSub a b => mkSub (nth_e es a) (nth_e es b)
  | NMul a b => mkMul (nth_e es a) (nth_e es b)
  | NNeg a => mkNeg (nth_e es a)
  end.

Fixpoint pe_from (pe : penv) (nodes : list node) (es : list expr) : list expr :=
  match nodes with
  | [] => es
  | n :: rest => pe_from pe rest (es ++ [pe_node pe es n])
  end.
Definition pe_nodes (pe : penv) (nodes : list node) : list expr := pe_from pe nodes [].

Definition agrees (e : env) (pe : penv) : Prop := forall v c, pe v = Some c -> e v == c.

Lemma Forall2_nth {A B} (R : A -> B -> Prop) l l' d d' :
  Forall2 R l l' -> R d d' -> forall i, R (nth i l d) (nth i l' d').
Proof. intros H Hd. induction H; intros [|i]; cbn; auto. Qed.

Lemma pe_node_sound e pe es vs n :
  agrees e pe -> Forall2 (fun x v => eeval e x == v) es vs -> eeval e (pe_node pe es n) == nval e vs n.
Proof.
  intros Ha Hr.
  assert (Hi : forall i, eeval e (nth_e es i) == nth_z vs i).
  { intros i. apply (Forall2_nth _ _ _ _ _ Hr). reflexivity. }
  destruct n; cbn [pe_node nval].
  - apply cong_refl.
  - destruct (pe v) eqn:E; cbn [eeval]; [rewrite !cong_mod; symmetry; eauto | symmetry; apply cong_mod].
  - rewrite mkAdd_sound, cong_mod, !Hi. reflexivity.
  - rewrite mkSub_sound, cong_mod, !Hi. reflexivity.
  - rewrite mkMul_sound, cong_mod, !Hi. reflexivity.
  - rewrite mkNeg_sound, cong_mod, !Hi. reflexivity.
Qed.

(* invariant of [pe_from]: the i-th expression is congruent to the i-th value *)
Lemma pe_from_sound e pe : agrees e pe -> forall nodes es vs,
  Forall2 (fun x v => eeval e x == v) es vs ->
  Forall2 (fun x v => eeval e x == v) (pe_from pe nodes es) (eval_from e nodes vs).
Proof.
  intros Ha. induction nodes as [|n nodes IH]; intros es vs Hr; cbn [pe_from eval_from]; [exact Hr|].
  apply IH. apply Forall2_app; [exact Hr|]. constructor; [|constructor]. apply pe_node_sound; assumption.
Qed.

(* the partial evaluator is sound: under any valuation that agrees with the known cells, every
   simplified expression is congruent (mod p) to the value of its node *)
Theorem pe_sound e pe nodes i :
  agrees e pe ->
  eeval e (nth i (pe_nodes pe nodes) (EConst 0)) == nth i (eval_nodes e nodes) 0.
Proof.
  intros Ha. apply (Forall2_nth _ _ _ _ _ (pe_from_sound e pe Ha nodes [] [] (Forall2_nil _))). reflexivity.
Qed.

Lemma nval_canon e vs n : 0 <= nval e vs n < P.
Proof. destruct n; cbn [nval]; apply Z.mod_pos_bound; reflexivity. Qed.

(* [pe_nodes] keeps the expressions in a list it appends to and reads with [nth]: quadratic in
   the number of nodes, which the kernel's reduction machine pays in full.  Proofs about a concrete
   DAG evaluate [pe_roots] instead: the same expressions, kept under their node index in a binary
   trie (node i under key i + 1). *)
Definition tget (m : PositiveMap.t expr) (i : Z) : expr :=
  match PositiveMap.find (Z.to_pos (i + 1)) m with Some x => x | None => EConst 0 end.

(* [pe_node] with the expressions of earlier nodes read through [get] *)
Definition pe_node_at (get : Z -> expr) (pe : penv) (n : node) : expr :=
  match n with
  | NConst c => EConst (c mod P)
  | NVar v => match pe v with Some c => EConst (c mod P) | None => EVar v end
  | NAdd a b => mkAdd (get a) (get b)
  | NSub a b => mkSub (get a) (get b)
  | NMul a b => mkMul (get a) (get b)
  | NNeg a => mkNeg (get a)
  end.

Fixpoint pe_tfrom (pe : penv) (nodes : list node) (k : positive) (m : PositiveMap.t expr) : PositiveMap.t expr :=
  match nodes with
  | [] => m
  | n :: rest => pe_tfrom pe rest (Pos.succ k) (PositiveMap.add k (pe_node_at (tget m) pe n) m)
  end.

Definition pe_roots (pe : penv) (nodes : list node) (roots : list Z) : list expr :=
  map (tget (pe_tfrom pe nodes 1 (PositiveMap.empty expr))) roots.

(* the trie reads like the list: a new entry under the next key is an entry appended *)
Lemma tget_add m k x i :
  tget (PositiveMap.add (Pos.of_succ_nat k) x m) i = if (Z.to_nat i =? k)%nat then x else tget m i.
Proof.
  unfold tget.
  (* negative indices read slot 0, in the trie as in the list *)
  replace (Z.to_pos (i + 1)) with (Pos.of_succ_nat (Z.to_nat i)).
  2:{ destruct i as [|p|[]]; try reflexivity. cbn. rewrite Pos.add_1_r. apply Pos2SuccNat.id_succ. }
  destruct (Nat.eqb_spec (Z.to_nat i) k) as [->|N].
  - rewrite PositiveMap.gss. reflexivity.
  - rewrite PositiveMap.gso; [reflexivity|]. intros E. apply N, SuccNat2Pos.inj, E.
Qed.

Lemma nth_snoc {A} (l : list A) x d n :
  nth n (l ++ [x]) d = if (n =? length l)%nat then x else nth n l d.
Proof.
  destruct (Nat.eqb_spec n (length l)) as [->|N]; [apply nth_middle|].
  destruct (Nat.lt_ge_cases n (length l)); [apply app_nth1; assumption|].
  rewrite !nth_overflow; [reflexivity | lia | rewrite app_length; cbn; lia].
Qed.

Lemma pe_tfrom_spec pe nodes : forall m es,
  (forall i, tget m i = nth_e es i) ->
  forall i, tget (pe_tfrom pe nodes (Pos.of_succ_nat (length es)) m) i = nth_e (pe_from pe nodes es) i.
Proof.
  induction nodes as [|n nodes IH]; intros m es H; cbn [pe_tfrom pe_from]; [exact H|].
  replace (Pos.succ (Pos.of_succ_nat (length es))) with (Pos.of_succ_nat (length (es ++ [pe_node pe es n])))
    by (rewrite app_length, Nat.add_1_r; reflexivity).
  apply IH. intros i. unfold nth_e. rewrite tget_add, nth_snoc, H.
  replace (pe_node_at (tget m) pe n) with (pe_node pe es n); [reflexivity|].
  destruct n; cbn [pe_node pe_node_at]; rewrite ?H; reflexivity.
Qed.

Theorem pe_roots_spec pe nodes roots : pe_roots pe nodes roots = map (nth_e (pe_nodes pe nodes)) roots.
Proof.
  apply map_ext. apply (pe_tfrom_spec pe nodes (PositiveMap.empty expr) []).
  intros i. unfold tget, nth_e. rewrite PositiveMap.gempty. destruct (Z.to_nat i); reflexivity.
Qed.
