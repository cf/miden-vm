(* The public statement as the sequence of field elements that seeds the Fiat-Shamir coin
   (PublicInputs::to_elements): program hash, kernel procedure hashes, stack inputs, stack outputs,
   overflow addresses - concatenated without any length prefix. *)
From Coq Require Import ZArith List Lia.
Import ListNotations.
Open Scope Z_scope.

Definition pub_elements (h : list Z) (k : list (list Z)) (ins outs addrs : list Z) : list Z :=
  h ++ concat k ++ ins ++ outs ++ addrs.

Lemma app_inj_len {A} (a a' b b' : list A) : length a = length a' -> a ++ b = a' ++ b' -> a = a' /\ b = b'.
Proof.
  revert a'. induction a as [|x a IH]; intros [|y a'] L E; try discriminate L.
  - split; [reflexivity | exact E].
  - injection E as -> E. cbn in L. destruct (IH a' ltac:(lia) E) as [-> ->]. split; reflexivity.
Qed.

Lemma concat_inj_words (k k' : list (list Z)) r r' :
  Forall (fun w => length w = 4%nat) k -> Forall (fun w => length w = 4%nat) k' ->
  length k = length k' -> concat k ++ r = concat k' ++ r' -> k = k' /\ r = r'.
Proof.
  intros F. revert k'.
  induction F as [|w k Hw _ IH]; intros k' F' L E; destruct F' as [|w' k' Hw' F']; try discriminate L.
  - split; [reflexivity | exact E].
  - cbn [concat] in E. rewrite <- !app_assoc in E.
    destruct (app_inj_len w w' _ _ ltac:(lia) E) as [-> E2].
    destruct (IH k' F' ltac:(cbn in L; lia) E2) as [-> ->]. split; reflexivity.
Qed.

(* given the three lengths (kernel procedures, inputs, outputs) the element sequence determines the
   statement *)
Theorem pub_elements_framed h h' k k' ins ins' outs outs' addrs addrs' :
  length h = 4%nat -> length h' = 4%nat ->
  Forall (fun w => length w = 4%nat) k -> Forall (fun w => length w = 4%nat) k' ->
  length k = length k' -> length ins = length ins' -> length outs = length outs' ->
  pub_elements h k ins outs addrs = pub_elements h' k' ins' outs' addrs' ->
  h = h' /\ k = k' /\ ins = ins' /\ outs = outs' /\ addrs = addrs'.
Proof.
  intros Lh Lh' F F' Lk Li Lo E.
  destruct (app_inj_len h h' _ _ ltac:(lia) E) as [-> E1].
  destruct (concat_inj_words k k' _ _ F F' Lk E1) as [-> E2].
  destruct (app_inj_len _ _ _ _ Li E2) as [-> E3].
  destruct (app_inj_len _ _ _ _ Lo E3) as [-> ->]. auto.
Qed.

(* without the lengths it does not: a kernel procedure and four stack inputs are indistinguishable in
   the element sequence (the binding of the proof to the statement therefore rests on the boundary
   assertions and the kernel ROM, not on the seed alone) *)
Theorem pub_elements_not_framed :
  exists h k ins outs addrs k' ins',
    (k, ins) <> (k', ins') /\ pub_elements h k ins outs addrs = pub_elements h k' ins' outs addrs.
Proof.
  exists [1; 2; 3; 4], [[5; 6; 7; 8]], [], [0;0;0;0;0;0;0;0;0;0;0;0;0;0;0;0], [], [], [5; 6; 7; 8].
  split; [discriminate | reflexivity].
Qed.
