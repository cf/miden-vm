(* Soundness of the stack constraints for operations whose next-row cells are explicit polynomials
   of the current row: if the row pair carries the opcode and every transition constraint
   vanishes, the next stack cells are congruent to what the VM model computes. *)
From Coq Require Import ZArith List Bool.
From MV Require Import Base.Field Core.Op Vm.Pure Air.Expr Air.Frame Gen.AirGen.
Import ListNotations.
Open Scope Z_scope.

Lemma cong_mod_r a b : a == b -> a == b mod P.
Proof. exact (cong_unmod a b). Qed.

(* n = 16, or 15 for an operation that shifts the stack left: its last cell comes from the overflow
   table, not from the current row *)
Definition air_matches (o : op) (n : nat) : Prop :=
  forall e, row_has_op e (opcode o) -> constraints_hold e ->
    match vpure_op o (scurs e) with
    | POk r => Forall2 cong (snxts e n) (firstn n r)
    | PErr _ => True
    end.

Lemma is_bin_false_cases x : negb (is_bin x) = false -> x = 0 \/ x = 1.
Proof.
  intros H. apply negb_false_iff in H. apply orb_true_iff in H.
  destruct H as [H|H]; apply Z.eqb_eq in H; auto.
Qed.

(* a condition of the operation (a binary operand, a comparison with a constant) is decided by cases,
   and the cases the operation rejects need nothing *)
Ltac split_conds :=
  repeat match goal with
         | |- context [if negb (is_bin ?x) then _ else _] =>
             let H := fresh "B" in destruct (negb (is_bin x)) eqn:H; [exact I|];
             apply is_bin_false_cases in H; destruct H as [H|H]; rewrite ?H in *
         | |- context [if ?x =? ?k then _ else _] =>
             let H := fresh "Q" in destruct (Z.eqb_spec x k) as [H|H]; [rewrite ?H in *|]
         end;
  cbn [Z.eqb Pos.eqb andb orb negb] in *; try exact I.

(* [air_matches o n]: open the residuals of o's opcode, run the model operation on the current
   cells, and settle the next cells one by one, each from the residual that mentions it *)
Ltac air_op :=
  lazymatch goal with
  | |- air_matches ?o _ =>
      let code := eval cbv in (opcode o) in
      let e := fresh "e" in let Ha := fresh "Ha" in let Hc := fresh "Hc" in
      intros e Ha Hc; open_residuals e code Ha Hc;
      cbv [vpure_op pure_op_gen vreplace gl gls nth skipn app seq map firstn scurs snxts
           Z.of_nat Pos.of_succ_nat Pos.succ];
      cells e; split_conds;
      repeat (apply Forall2_cons; [by_residual|]); apply Forall2_nil
  end.

Theorem add_sound : air_matches Add 15.
Proof. air_op. Qed.

Theorem noop_sound : air_matches Noop 16.
Proof. air_op. Qed.
Theorem neg_sound : air_matches Neg 16.
Proof. air_op. Qed.
Theorem incr_sound : air_matches Incr 16.
Proof. air_op. Qed.
Theorem ext2mul_sound : air_matches Ext2Mul 16.
Proof. air_op. Qed.
Theorem pad_sound : air_matches Pad 16.
Proof. air_op. Qed.
Theorem dup0_sound : air_matches Dup0 16.
Proof. air_op. Qed.
Theorem dup1_sound : air_matches Dup1 16.
Proof. air_op. Qed.
Theorem dup2_sound : air_matches Dup2 16.
Proof. air_op. Qed.
Theorem dup3_sound : air_matches Dup3 16.
Proof. air_op. Qed.
Theorem dup4_sound : air_matches Dup4 16.
Proof. air_op. Qed.
Theorem dup5_sound : air_matches Dup5 16.
Proof. air_op. Qed.
Theorem dup6_sound : air_matches Dup6 16.
Proof. air_op. Qed.
Theorem dup7_sound : air_matches Dup7 16.
Proof. air_op. Qed.
Theorem dup9_sound : air_matches Dup9 16.
Proof. air_op. Qed.
Theorem dup11_sound : air_matches Dup11 16.
Proof. air_op. Qed.
Theorem dup13_sound : air_matches Dup13 16.
Proof. air_op. Qed.
Theorem dup15_sound : air_matches Dup15 16.
Proof. air_op. Qed.
Theorem swap_sound : air_matches Swap 16.
Proof. air_op. Qed.
Theorem swapw_sound : air_matches SwapW 16.
Proof. air_op. Qed.
Theorem swapw2_sound : air_matches SwapW2 16.
Proof. air_op. Qed.
Theorem swapw3_sound : air_matches SwapW3 16.
Proof. air_op. Qed.
Theorem swapdw_sound : air_matches SwapDW 16.
Proof. air_op. Qed.
Theorem movup2_sound : air_matches MovUp2 16.
Proof. air_op. Qed.
Theorem movup3_sound : air_matches MovUp3 16.
Proof. air_op. Qed.
Theorem movup4_sound : air_matches MovUp4 16.
Proof. air_op. Qed.
Theorem movup5_sound : air_matches MovUp5 16.
Proof. air_op. Qed.
Theorem movup6_sound : air_matches MovUp6 16.
Proof. air_op. Qed.
Theorem movup7_sound : air_matches MovUp7 16.
Proof. air_op. Qed.
Theorem movup8_sound : air_matches MovUp8 16.
Proof. air_op. Qed.
Theorem movdn2_sound : air_matches MovDn2 16.
Proof. air_op. Qed.
Theorem movdn3_sound : air_matches MovDn3 16.
Proof. air_op. Qed.
Theorem movdn4_sound : air_matches MovDn4 16.
Proof. air_op. Qed.
Theorem movdn5_sound : air_matches MovDn5 16.
Proof. air_op. Qed.
Theorem movdn6_sound : air_matches MovDn6 16.
Proof. air_op. Qed.
Theorem movdn7_sound : air_matches MovDn7 16.
Proof. air_op. Qed.
Theorem movdn8_sound : air_matches MovDn8 16.
Proof. air_op. Qed.
Theorem mul_sound : air_matches Mul 15.
Proof. air_op. Qed.
Theorem drop_sound : air_matches Drop 15.
Proof. air_op. Qed.

Theorem not_sound : air_matches Not 16.
Proof. air_op. Qed.
Theorem and_sound : air_matches And 15.
Proof. air_op. Qed.
Theorem or_sound : air_matches Or 15.
Proof. air_op. Qed.

Theorem cswap_sound : air_matches CSwap 15.
Proof. air_op. Qed.
Theorem cswapw_sound : air_matches CSwapW 15.
Proof. air_op. Qed.
