(* The block-stack discipline of real executions, as a virtual table: every block start adds a
   row, every END removes the row of the latest open block, and at the end the table is empty. *)
From Coq Require Import ZArith List.
From MV Require Import Core.Op Vm.State Vm.Exec Vm.StreamProps Air.Bus.
Import ListNotations.
Open Scope Z_scope.

(* rows are abstracted to "one open block" *)
Definition unit_row : row := [1].

Definition block_events (l : list op) : list event :=
  flat_map (fun o => if opens o then [Add unit_row] else if closes o then [Remove unit_row] else []) l.

Lemma nest_run_stack : forall l d d',
  nest d l = Some d' -> run_stack (block_events l) (repeat unit_row d) = Some (repeat unit_row d').
Proof.
  induction l as [|o l IH]; intros d d' H; cbn [nest block_events flat_map] in *.
  - inversion H; subst. reflexivity.
  - destruct (opens o) eqn:Eo.
    + apply (IH (S d) d' H).
    + destruct (closes o) eqn:Ec.
      * destruct d as [|d0]; [discriminate | apply (IH d0 d' H)].
      * apply (IH d d' H).
Qed.

(* C12 (block stack table): in every successful execution the table ends empty *)
Theorem block_table_empties fuel m p inputs advice s' :
  exec_program fuel m p inputs advice = Ok s' ->
  run_stack (block_events (rev (olog s'))) [] = Some [].
Proof.
  intros H. apply (nest_run_stack _ 0%nat 0%nat). eapply stream_nested. exact H.
Qed.

(* hence its running-product column is back at its initial value, for every challenge *)
Theorem block_table_both fuel m p inputs advice s' alphas :
  exec_program fuel m p inputs advice = Ok s' ->
  run_stack (block_events (rev (olog s'))) [] = Some [] /\
  fprod (map (encode alphas) (adds (block_events (rev (olog s'))))) =
  fprod (map (encode alphas) (removes (block_events (rev (olog s'))))).
Proof. intros H. apply block_table_empties in H. split; [exact H | apply table_returns, H]. Qed.
