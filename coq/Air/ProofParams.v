(* The part of proving and verification that is plain decision logic (C01/C02): which proof
   parameters the verifier accepts under which hash function (verifier/src/lib.rs), and the
   conjectured security estimate that is reported (winter-air get_conjectured_security), over the
   constants read from /repo on every run (Gen/OptGen.v). *)
From Coq Require Import ZArith List Bool Lia.
From MV Require Import Gen.OptGen.
Import ListNotations.
Open Scope Z_scope.

Definition opts : Type := (Z * Z * Z * Z * Z * Z)%type.
Definition o_queries (o : opts) : Z := let '(q, _, _, _, _, _) := o in q.
Definition o_blowup (o : opts) : Z := let '(_, b, _, _, _, _) := o in b.
Definition o_grinding (o : opts) : Z := let '(_, _, g, _, _, _) := o in g.
Definition o_ext (o : opts) : Z := let '(_, _, _, e, _, _) := o in e.

Definition opts_eqb (a b : opts) : bool :=
  let '(a1, a2, a3, a4, a5, a6) := a in let '(b1, b2, b3, b4, b5, b6) := b in
  (a1 =? b1) && (a2 =? b2) && (a3 =? b3) && (a4 =? b4) && (a5 =? b5) && (a6 =? b6).

(* verify(): the option sets accepted for a proof labelled with hash function h
   (0 = Blake3_192, 1 = Blake3_256, 2 = Rpo256) *)
Definition acceptable (h : Z) : list opts :=
  if h =? 0 then [REGULAR_96_BITS]
  else if h =? 1 then [REGULAR_128_BITS]
  else if h =? 2 then [RECURSIVE_96_BITS; RECURSIVE_128_BITS]
  else [].
Definition accepts (h : Z) (o : opts) : bool := existsb (opts_eqb o) (acceptable h).

(* winter-air: conjectured security of a proof over a trace of 2^k rows *)
Definition GRINDING_CONTRIBUTION_FLOOR : Z := 80.
Definition conj_security (o : opts) (k : Z) (collision : Z) : Z :=
  let field_security := MODULUS_BITS * o_ext o - (k + Z.log2 (o_blowup o)) in
  let per_query := Z.log2 (o_blowup o) in
  let q0 := per_query * o_queries o in
  let query_security := if GRINDING_CONTRIBUTION_FLOOR <=? q0 then q0 + o_grinding o else q0 in
  Z.min (Z.min field_security query_security - 1) collision.

Fixpoint assoc_z (k : Z) (l : list (Z * Z)) : Z :=
  match l with [] => 0 | (a, b) :: r => if a =? k then b else assoc_z k r end.

Definition reported_security (h : Z) (o : opts) (k : Z) : Z := conj_security o k (assoc_z h collision_resistance).

(* C01: the standard configurations are accepted and report at least what they promise *)
Lemma standard_sets_accepted : forallb (fun s => accepts (fst s) (snd s)) standard_sets = true.
Proof. vm_compute. reflexivity. Qed.

Definition promised (o : opts) : Z := if o_ext o =? 2 then 96 else 128.

(* every standard configuration reports exactly the promised level for every trace length up to
   2^28 rows (the 96-bit sets; 2^59 for the 128-bit sets): the field term 64 * degree - k - log2
   (blowup) is what drops first *)
Lemma standard_security h o k : In (h, o) standard_sets ->
  0 <= k <= (if promised o =? 96 then 28 else 59) -> reported_security h o k = promised o.
Proof.
  (* each set: the constants evaluate, the trace length k stays, and Z.min is left to lia *)
  intros [E|[E|[E|[E|[]]]]]; injection E as <- <-; unfold reported_security, conj_security;
    cbn -[Z.add Z.sub Z.min]; lia.
Qed.

Lemma security_96 : forall h o k, In (h, o) standard_sets -> promised o = 96 -> 0 <= k <= 28 ->
  reported_security h o k = 96.
Proof. intros h o k Hin Hp Hk. rewrite <- Hp. apply standard_security; [exact Hin | rewrite Hp; exact Hk]. Qed.

Lemma security_128 : forall h o k, In (h, o) standard_sets -> promised o = 128 -> 0 <= k <= 59 ->
  reported_security h o k = 128.
Proof. intros h o k Hin Hp Hk. rewrite <- Hp. apply standard_security; [exact Hin | rewrite Hp; exact Hk]. Qed.

(* beyond that the estimate drops below the promise: a trace of 2^29 rows with a 96-bit set *)
Lemma security_96_refuted : reported_security 0 REGULAR_96_BITS 29 = 95.
Proof. vm_compute. reflexivity. Qed.

(* C02: relabelling the hash function of a standard proof is never accepted, except between
   the two recursive sets, which share Rpo256 *)
Lemma relabel_rejected : forall h o h', In (h, o) standard_sets -> h' <> h -> 0 <= h' <= 2 -> accepts h' o = false.
Proof.
  intros h o h' Hin Hne Hr.
  assert (C : h' = 0 \/ h' = 1 \/ h' = 2) by lia.
  destruct Hin as [E|[E|[E|[E|[]]]]]; inversion E; subst;
    destruct C as [ C | [ C | C ] ]; subst h'; try contradiction; vm_compute; reflexivity.
Qed.

(* parameters outside the accepted sets are rejected whatever their estimated security *)
Lemma only_listed_accepted : forall h o, accepts h o = true -> In o (acceptable h).
Proof.
  intros h o H. apply existsb_exists in H. destruct H as [x [Hin Hx]].
  assert (o = x).
  { destruct o as [[[[[a1 a2] a3] a4] a5] a6], x as [[[[[b1 b2] b3] b4] b5] b6].
    repeat (apply andb_true_iff in Hx; destruct Hx as [Hx ?]).
    repeat match goal with H : (_ =? _) = true |- _ => apply Z.eqb_eq in H end. subst. reflexivity. }
  subst. exact Hin.
Qed.
