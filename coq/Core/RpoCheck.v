(* Closed RPO hashes are checked, not computed.  The field operations are those of Base/Field.v that
   avoid long division, and the inverse S-box (x^INV_ALPHA, 64 squarings an element, nine tenths of a
   permutation) is not run at all: the state after each round is given, and what is checked is that
   its seventh powers are what the inverse S-box was applied to.  That this determines the state is
   Fermat's little theorem: 7 * INV_ALPHA = 1 modulo P - 1. *)
From Coq Require Import ZArith List Bool Lia Zpow_facts.
From MV Require Import Base.Field Base.Prime Gen.ConstGen Core.Rpo.
Import ListNotations.
Open Scope Z_scope.

(* 7 * INV_ALPHA = 4 (P - 1) + 1 *)
Lemma sbox_inverse y : canon y -> inv_sbox (sbox y) = y.
Proof.
  intros Hy. unfold inv_sbox, sbox.
  rewrite !fpow_spec, <- Zpower_mod, <- Z.pow_mul_r by (discriminate || reflexivity).
  change (7 * INV_ALPHA) with ((P - 1) * 4 + 1).
  destruct (Z.eq_dec y 0) as [->|N]; [rewrite Z.pow_0_l by reflexivity; reflexivity|].
  rewrite (pow_cycle P y 4 P_prime), Z.mod_small; [reflexivity | exact Hy | | discriminate].
  intros D. apply Z.divide_pos_le in D; unfold canon in Hy; lia.
Qed.

Definition gdot (r v : list Z) : Z :=
  fold_left (fun acc p => gadd acc (gmul (fst p) (snd p))) (combine r v) 0.

Lemma gdot_dot r v : gdot r v = dot r v.
Proof.
  unfold gdot, dot. generalize 0 as acc. generalize (combine r v) as l.
  induction l as [|p l IH]; intros acc; cbn [fold_left]; [reflexivity|]. rewrite gmul_fmul, gadd_fadd. apply IH.
Qed.

(* the linear half of a half round, with the operations of Field.v that avoid long division *)
Definition glin (st c : list Z) : list Z :=
  map (fun p => gadd (fst p) (snd p)) (combine (map (fun r => gdot r st) RPO_MDS) c).

Lemma glin_lin st c : glin st c = add_consts (apply_mds st) c.
Proof.
  unfold glin, add_consts, apply_mds.
  rewrite (map_ext _ _ (fun r => gdot_dot r st)). apply map_ext. intros p. apply gadd_fadd.
Qed.

(* what the inverse S-box of round r is applied to *)
Definition before_inv (st : list Z) (r : nat) : list Z :=
  glin (map (fun x => gpow x 7) (glin st (nth r RPO_ARK1 []))) (nth r RPO_ARK2 []).

Lemma rpo_round_inv st r : rpo_round st r = map inv_sbox (before_inv st r).
Proof.
  unfold rpo_round, before_inv. rewrite !glin_lin, (map_ext _ sbox (fun x => gpow_fpow x 7)). reflexivity.
Qed.

Definition round_ok (st : list Z) (r : nat) (h : list Z) : bool :=
  forallb canonb h && if list_eq_dec Z.eq_dec (map (fun y => gpow y 7) h) (before_inv st r) then true else false.

Lemma round_ok_sound st r h : round_ok st r h = true -> rpo_round st r = h.
Proof.
  unfold round_ok. rewrite rpo_round_inv, (map_ext _ sbox (fun x => gpow_fpow x 7)).
  intros [Hc E]%andb_true_iff. destruct (list_eq_dec _ _ _) as [<-|]; [|discriminate].
  rewrite map_map. rewrite <- (map_id h) at 2. apply map_ext_in.
  intros y Hy. apply sbox_inverse, canonb_true. exact (proj1 (forallb_forall _ _) Hc y Hy).
Qed.

Fixpoint rounds_checked (st : list Z) (rs : list nat) (hs : list (list Z)) : option (list Z) :=
  match rs, hs with
  | [], [] => Some st
  | r :: rs', h :: hs' => if round_ok st r h then rounds_checked h rs' hs' else None
  | _, _ => None
  end.

Lemma rounds_checked_sound : forall rs hs st st',
  rounds_checked st rs hs = Some st' -> fold_left rpo_round rs st = st'.
Proof.
  induction rs as [|r rs IH]; intros [|h hs] st st' H; try discriminate H; cbn [rounds_checked fold_left] in *.
  - injection H as <-. reflexivity.
  - destruct (round_ok st r h) eqn:E; [|discriminate]. rewrite (round_ok_sound _ _ _ E). exact (IH _ _ _ H).
Qed.

(* the states after each round: computed once, outside the proof term, they are the hints *)
Fixpoint rpo_trace (st : list Z) (rs : list nat) : list (list Z) :=
  match rs with
  | [] => []
  | r :: rs' =>
      let s := map (fun x => gpow x INV_ALPHA) (before_inv st r) in s :: rpo_trace s rs'
  end.

Theorem permute_checked st hs st' :
  rounds_checked st (seq 0 RPO_NUM_ROUNDS) hs = Some st' -> rpo_permute st = st'.
Proof. apply rounds_checked_sound. Qed.

(* rewrites the permutation in the goal to its value *)
Ltac permute_by_check :=
  match goal with |- context [rpo_permute ?st] =>
    let hs := eval vm_compute in (rpo_trace st (seq 0 RPO_NUM_ROUNDS)) in
    let st' := eval vm_compute in (last hs st) in
    rewrite (permute_checked st hs st') by (vm_compute; reflexivity)
  end.
