(* Rescue Prime Optimized over Goldilocks, as used by miden-crypto 0.8.4 (Rpo256):
   state of 12 elements, capacity 0..4, rate 4..12, digest 4..8, 7 rounds.
   Constants come from Gen/ConstGen.v (dumped from the crate on every run). *)
From Coq Require Import ZArith List.
From MV Require Import Base.Field Gen.ConstGen.
Import ListNotations.
Open Scope Z_scope.

Definition word := list Z.  (* always 4 elements in well-formed values *)
Definition ZERO_WORD : word := [0;0;0;0].

Definition dot (r v : list Z) : Z :=
  fold_left (fun acc p => fadd acc (fmul (fst p) (snd p))) (combine r v) 0.

Definition apply_mds (st : list Z) : list Z := map (fun r => dot r st) RPO_MDS.

Definition add_consts (st c : list Z) : list Z :=
  map (fun p => fadd (fst p) (snd p)) (combine st c).

Definition sbox (x : Z) : Z := fpow x 7.
Definition INV_ALPHA : Z := 10540996611094048183.
Definition inv_sbox (x : Z) : Z := fpow x INV_ALPHA.

Definition rpo_round (st : list Z) (r : nat) : list Z :=
  let s1 := map sbox (add_consts (apply_mds st) (nth r RPO_ARK1 [])) in
  map inv_sbox (add_consts (apply_mds s1) (nth r RPO_ARK2 [])).

Definition rpo_permute (st : list Z) : list Z :=
  fold_left rpo_round (seq 0 RPO_NUM_ROUNDS) st.

Definition digest_of (st : list Z) : word := firstn 4 (skipn 4 st).

(* merge_in_domain([a, b], d): capacity = [0, d, 0, 0], rate = a ++ b *)
Definition merge_in_domain (a b : word) (d : Z) : word :=
  digest_of (rpo_permute ([0; d; 0; 0] ++ a ++ b)).

Definition merge (a b : word) : word := merge_in_domain a b 0.

(* hash_elements: absorb 8 at a time; if length is not a multiple of 8 the first capacity
   element is 1 and the last block is padded with 1 then zeros. *)
Fixpoint absorb_state (fuel : nat) (st : list Z) (xs : list Z) : list Z :=
  match fuel with
  | O => st
  | S f =>
    if Nat.leb 8 (length xs) then
      let st' := rpo_permute (firstn 4 st ++ firstn 8 xs) in
      match skipn 8 xs with
      | [] => st'
      | rest => absorb_state f st' rest
      end
    else
      rpo_permute (firstn 4 st ++ xs ++ [1] ++ repeat 0 (7 - length xs))
  end.

Definition hash_elements (xs : list Z) : word :=
  match xs with
  | [] => [0;0;0;0]
  | _ =>
    let c0 := if Nat.eqb (Nat.modulo (length xs) 8) 0 then 0 else 1 in
    digest_of (absorb_state (S (length xs)) ([c0;0;0;0] ++ repeat 0 8) xs)
  end.

Lemma rpo_round_length st r :
  length (rpo_round st r) = Nat.min (length RPO_MDS) (length (nth r RPO_ARK2 [])).
Proof. unfold rpo_round, add_consts, apply_mds. rewrite !map_length, combine_length, map_length. reflexivity. Qed.

Lemma rpo_permute_length st : length (rpo_permute st) = 12%nat.
Proof.
  unfold rpo_permute. change (seq 0 RPO_NUM_ROUNDS) with (seq 0 6 ++ [6%nat]).
  rewrite fold_left_app. apply rpo_round_length.
Qed.

(* powers with the multiplication of Base/Field.v that avoids long division: what closed terms with
   a 64-bit exponent are evaluated with *)
Fixpoint gpow_pos (a : Z) (e : positive) : Z :=
  match e with
  | xH => if canonb a then a else a mod P
  | xO e' => let h := gpow_pos a e' in gmul h h
  | xI e' => let h := gpow_pos a e' in gmul (gmul h h) a
  end.
Definition gpow (a e : Z) : Z := match e with Zpos e' => gpow_pos a e' | _ => fpow a e end.

Lemma gpow_fpow a e : gpow a e = fpow a e.
Proof.
  destruct e as [|e|e]; try reflexivity. cbn [gpow fpow].
  induction e as [e IH|e IH|]; cbn [gpow_pos fpow_pos]; cbv zeta; rewrite ?IH, ?gmul_fmul; try reflexivity.
  destruct (canonb a) eqn:C; [symmetry; apply Z.mod_small, canonb_true, C | reflexivity].
Qed.

Lemma hash_elements_block xs : length xs = 8%nat ->
  hash_elements xs = digest_of (rpo_permute ([0; 0; 0; 0] ++ xs)).
Proof.
  intros L. do 8 (destruct xs as [|? xs]; [discriminate L|]). destruct xs; [reflexivity | discriminate L].
Qed.
