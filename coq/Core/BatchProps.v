(* Shape of operation batches: every batch has 8 group slots, uses at most 8 groups, no group
   holds more than 9 operations, opcodes are a 7-bit injective code, and batching keeps the
   operation sequence. *)
From Coq Require Import ZArith List Bool Lia.
From MV Require Import Core.Op Core.Batch.
Import ListNotations.
Open Scope Z_scope.

Lemma set_nth_length {A} n (x : A) l : length (set_nth n x l) = length l.
Proof. revert n; induction l as [|h t IH]; intros [|n]; cbn; auto. Qed.

Definition acc_ok (a : acc) : Prop :=
  (a_opidx a <= 9)%nat /\ (a_gidx a < a_next a)%nat /\ (a_next a <= 8)%nat /\
  length (a_groups a) = 8%nat /\ length (a_counts a) = 8%nat /\
  Forall (fun c => (c <= 9)%nat) (a_counts a).

Lemma acc_new_ok : acc_ok acc_new.
Proof. unfold acc_ok, acc_new; cbn. repeat constructor; lia. Qed.

Lemma Forall_set_nth n (x : nat) l (P : nat -> Prop) : P x -> Forall P l -> Forall P (set_nth n x l).
Proof.
  intros Hx. revert n. induction l as [|h t IH]; intros n H; [destruct n; constructor|].
  inversion H; subst. destruct n; cbn; constructor; auto.
Qed.

Lemma finalize_ok a : acc_ok a -> (a_next a < 8)%nat -> acc_ok (finalize_group a).
Proof.
  intros [H1 [H2 [H3 [H4 [H5 H6]]]]] Hn. unfold acc_ok, finalize_group; cbn.
  rewrite !set_nth_length. repeat split; try lia. apply Forall_set_nth; [lia | exact H6].
Qed.

Lemma store_imm_ok a imm : acc_ok a -> (a_next a < 8)%nat ->
  acc_ok (mkAcc (a_ops a) (set_nth (a_next a) imm (a_groups a)) (a_counts a)
                (a_group a) (a_opidx a) (a_gidx a) (a_next a + 1)).
Proof.
  intros [H1 [H2 [H3 [H4 [H5 H6]]]]] Hn. unfold acc_ok; cbn.
  rewrite set_nth_length. repeat split; try lia. exact H6.
Qed.

Lemma push_op_ok a o g : acc_ok a -> (a_opidx a < 9)%nat ->
  acc_ok (mkAcc (a_ops a ++ [o]) (a_groups a) (a_counts a) g (a_opidx a + 1) (a_gidx a) (a_next a)).
Proof.
  intros [H1 [H2 [H3 [H4 [H5 H6]]]]] Hn. unfold acc_ok; cbn. repeat split; try lia. exact H6.
Qed.

(* a full group is finalized first, and so is a group of 8 before an operation with an immediate
   (which may not be the last of its group); can_accept_op has seen to it that a group slot is free
   for each finalization and one more for the immediate *)
Lemma add_op_ok a o : acc_ok a -> can_accept_op a o = true -> acc_ok (add_op a o).
Proof.
  intros Hok Hc. pose proof Hok as [H1 _].
  unfold can_accept_op, has_imm, GROUP_SIZE, BATCH_SIZE in Hc. unfold add_op, GROUP_SIZE.
  (* n <? m is S n <=? m: Nat.leb_le reads Hc once its condition is decided *)
  destruct (imm_value o) as [imm|]; destruct (Nat.eqb_spec (a_opidx a) 9) as [E9|E9].
  - rewrite E9 in Hc. apply Nat.leb_le in Hc.
    apply push_op_ok; [apply store_imm_ok; [apply finalize_ok|]|]; cbn; try assumption; lia.
  - destruct (Nat.eqb_spec (a_opidx a) (9 - 1)) as [E8|E8].
    + rewrite E8 in Hc. apply Nat.leb_le in Hc.
      apply push_op_ok; [apply store_imm_ok; [apply finalize_ok|]|]; cbn; try assumption; lia.
    + destruct (Nat.ltb_spec (a_opidx a) (9 - 1)) as [L|L]; [|lia]. apply Nat.leb_le in Hc.
      apply push_op_ok; [apply store_imm_ok|]; cbn; try assumption; lia.
  - rewrite E9 in Hc. apply Nat.leb_le in Hc. apply push_op_ok; [apply finalize_ok|]; cbn; try assumption; lia.
  - apply push_op_ok; [assumption | lia].
Qed.

Definition batch_ok (b : batch) : Prop :=
  length (b_groups b) = 8%nat /\ length (b_counts b) = 8%nat /\ (b_num_groups b <= 8)%nat /\
  Forall (fun c => (c <= 9)%nat) (b_counts b).

Lemma into_batch_ok a : acc_ok a -> batch_ok (into_batch a).
Proof.
  intros [H1 [H2 [H3 [H4 [H5 H6]]]]]. unfold batch_ok, into_batch; cbn.
  destruct (negb (a_group a =? 0) || negb (Nat.eqb (a_opidx a) 0)); rewrite ?set_nth_length;
    repeat split; try lia; try exact H6. apply Forall_set_nth; [lia | exact H6].
Qed.

Lemma acc_new_accepts o : can_accept_op acc_new o = true.
Proof. unfold can_accept_op. destruct (has_imm o); reflexivity. Qed.

Lemma batch_loop_ok : forall ops a done,
  acc_ok a -> Forall batch_ok done -> Forall batch_ok (batch_loop ops a done).
Proof.
  induction ops as [|o ops IH]; intros a done Ha Hd; cbn [batch_loop];
    assert (Hd' : Forall batch_ok (done ++ [into_batch a]))
      by (apply Forall_app; split; [exact Hd | constructor; [apply into_batch_ok, Ha | constructor]]).
  - destruct (a_ops a); assumption.
  - destruct (can_accept_op a o) eqn:E; apply IH; try assumption; apply add_op_ok;
      auto using acc_new_ok, acc_new_accepts.
Qed.

Theorem batch_ops_shape ops : Forall batch_ok (batch_ops ops).
Proof. apply batch_loop_ok; [apply acc_new_ok | constructor]. Qed.

Lemma opcode_range o : 0 <= opcode o < 128.
Proof. destruct o; cbn; lia. Qed.

(* operations with the same opcode are the same operation up to the data they carry *)
Definition same_kind (a b : op) : Prop :=
  match a, b with
  | Push _, Push _ | Assert _, Assert _ | U32assert2 _, U32assert2 _ => True
  | _, _ => a = b
  end.

Definition decode (z : Z) : op :=
  match find (fun o => opcode o =? z) all_ops with Some o => o | None => Noop end.

Lemma decode_opcode o : same_kind (decode (opcode o)) o.
Proof. destruct o; cbv; first [exact I | reflexivity]. Qed.

(* [decode (opcode a)] is a itself, unless a carries data: only then is b inspected *)
Lemma opcode_injective a b : opcode a = opcode b -> same_kind a b.
Proof.
  intros H. generalize (decode_opcode b). rewrite <- H. clear H.
  destruct a; cbv; try exact id; destruct b; first [exact id | discriminate].
Qed.

Lemma add_op_ops a o : a_ops (add_op a o) = a_ops a ++ [o].
Proof.
  unfold add_op. destruct (Nat.eqb (a_opidx a) GROUP_SIZE); destruct (imm_value o);
    cbn [a_ops]; repeat match goal with |- context [if ?c then _ else _] => destruct c end;
    reflexivity.
Qed.

Lemma batch_loop_ops : forall ops a done,
  flat_map b_ops (batch_loop ops a done) = flat_map b_ops done ++ a_ops a ++ ops.
Proof.
  induction ops as [|o ops IH]; intros a done; cbn [batch_loop].
  - destruct (a_ops a) eqn:E.
    + rewrite app_nil_r. reflexivity.
    + rewrite flat_map_app. cbn [flat_map into_batch b_ops]. rewrite E, !app_nil_r. reflexivity.
  - destruct (can_accept_op a o).
    + rewrite IH, add_op_ops, <- app_assoc. reflexivity.
    + rewrite IH, add_op_ops, flat_map_app. cbn [flat_map into_batch b_ops acc_new a_ops].
      rewrite app_nil_r, <- !app_assoc. reflexivity.
Qed.

Theorem batch_ops_concat ops : flat_map b_ops (batch_ops ops) = ops.
Proof. unfold batch_ops. rewrite batch_loop_ops. reflexivity. Qed.
