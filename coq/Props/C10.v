(* C10 - serialised code and data round-trip.
   Only statements, [exact], and Print Assumptions. *)
From Coq Require Import List.
From MV Require Import Serde.Codec Serde.CodecProps Serde.Containers Serde.Ast Serde.AstProps.
Import ListNotations.
Open Scope Z_scope.

(* the instruction tables read out of the Rust serialiser and deserialiser are inverse to each
   other: every variant the writer handles is written under an opcode that the reader maps back
   to the same variant while reading exactly the fields that were written, every opcode the
   reader accepts is written for the variant it builds, discriminants are distinct bytes, the
   three control-flow opcodes are not instruction opcodes, and the same holds for the advice
   injector, debug option and signature sub-tables *)
Theorem c10_tables_agree : tables_agree = true.
Proof. exact tables_agree_ok. Qed.
Print Assumptions c10_tables_agree.

(* for every schema: decoding the encoding gives the value back and leaves what follows alone *)
Theorem c10_codec_roundtrip : forall rec fuel s v r,
  Codec.wt rec s v = true -> (Codec.need rec s v <= fuel)%nat -> Codec.dec rec fuel s (Codec.enc rec s v ++ r) = Some (v, r).
Proof. exact roundtrip. Qed.
Print Assumptions c10_codec_roundtrip.

(* ProgramAst, ModuleAst and the module part of a MaslLibrary: the bytes produced with the
   writer's tables decode, with the reader's tables, to the same AST (any nesting depth, any
   instruction, any immediate the reader's range checks admit) *)
Theorem c10_program_roundtrip : forall fuel v r,
  Codec.wt S_node S_program v = true -> (Codec.need S_node S_program v <= fuel)%nat ->
  Codec.dec S_node fuel S_program (Codec.enc S_node_w S_program v ++ r) = Some (v, r).
Proof. exact program_roundtrip. Qed.
Print Assumptions c10_program_roundtrip.

Theorem c10_module_roundtrip : forall fuel v r,
  Codec.wt S_node S_module v = true -> (Codec.need S_node S_module v <= fuel)%nat ->
  Codec.dec S_node fuel S_module (Codec.enc S_node_w S_module v ++ r) = Some (v, r).
Proof. exact module_roundtrip. Qed.
Print Assumptions c10_module_roundtrip.

Theorem c10_library_roundtrip : forall fuel v r,
  Codec.wt S_node S_lib_head v = true -> (Codec.need S_node S_lib_head v <= fuel)%nat ->
  Codec.dec S_node fuel S_lib_head (Codec.enc S_node_w S_lib_head v ++ r) = Some (v, r).
Proof. exact lib_head_roundtrip. Qed.
Print Assumptions c10_library_roundtrip.

(* source locations written after the AST are read back when the reader expects as many as were
   written *)
Theorem c10_locations_roundtrip : forall (count : nat) l r,
  length l = count -> forallb loc_ok l = true ->
  Codec.dec SUnit 3 (SArr count S_loc) (Codec.enc SUnit (SArr count S_loc) (locs_value l) ++ r) = Some (locs_value l, r).
Proof. exact locations_roundtrip. Qed.
Print Assumptions c10_locations_roundtrip.

(* stack inputs, kernels, program info *)
Theorem c10_data_roundtrip : forall s v r,
  Containers.wt s v = true -> (Codec.need SUnit s v <= dfuel)%nat ->
  Containers.dec s (Containers.enc s v ++ r) = Some (v, r).
Proof. exact data_roundtrip. Qed.
Print Assumptions c10_data_roundtrip.

(* stack outputs built by the constructor *)
Theorem c10_stack_outputs_roundtrip : forall st ad so r,
  so_new st ad = Some so -> so_dec (so_enc so ++ r) = Some (so, r).
Proof. exact so_roundtrip. Qed.
Print Assumptions c10_stack_outputs_roundtrip.
