(* C06 - control flow and procedure inlining follow the documented semantics.
   Only statements, [exact], and Print Assumptions. *)
From Coq Require Import ZArith List.
From MV Require Import Base.Field Core.Op Core.Mast Vm.State Vm.Step Vm.Exec Vm.ControlProps
  Asm.Lower Asm.LowerProps.
Import ListNotations.
Open Scope Z_scope.

(* if/else: 1 runs exactly the true branch, 0 exactly the false branch, any other value fails
   with NotBinary right after the condition was popped - neither branch runs *)
Theorem c06_if : forall m T K f t e s s1, cstep m Split Drop s = Ok s1 ->
  (get s 0 = 1 -> exec_block m T K (S f) (BSplit t e) s = bind (exec_block m T K f t s1) (cstep m End Noop)) /\
  (get s 0 = 0 -> exec_block m T K (S f) (BSplit t e) s = bind (exec_block m T K f e s1) (cstep m End Noop)) /\
  (get s 0 <> 0 -> get s 0 <> 1 ->
     exec_block m T K (S f) (BSplit t e) s = Err (NotBinary (get s 0)) s1).
Proof. exact split_cases. Qed.
Print Assumptions c06_if.

(* while: at entry *)
Theorem c06_while_entry : forall m T K f body s s1, cstep m Loop Drop s = Ok s1 ->
  (get s 0 = 1 -> exec_block m T K (S f) (BLoop body) s =
                  bind (exec_block m T K f body s1) (exec_loop m T K f body)) /\
  (get s 0 = 0 -> exec_block m T K (S f) (BLoop body) s = cstep m End Noop s1) /\
  (get s 0 <> 0 -> get s 0 <> 1 ->
     exec_block m T K (S f) (BLoop body) s = Err (NotBinary (get s 0)) s1).
Proof. exact loop_entry_cases. Qed.
Print Assumptions c06_while_entry.

(* while: after every iteration the value left on top decides *)
Theorem c06_while_iteration : forall m T K f body s,
  (get s 0 = 1 -> exec_loop m T K (S f) body s =
     bind (cstep m Repeat Drop s) (fun s1 => bind (exec_block m T K f body s1) (exec_loop m T K f body))) /\
  (get s 0 = 0 -> exec_loop m T K (S f) body s = cstep m End Drop s) /\
  (get s 0 <> 0 -> get s 0 <> 1 -> exec_loop m T K (S f) body s = Err (NotBinary (get s 0)) s).
Proof. exact loop_iter_cases. Qed.
Print Assumptions c06_while_iteration.

(* sequencing: the tree built for a block sequence runs the blocks in their textual order *)
Theorem c06_join_order : forall bs, bs <> [] ->
  exists t, join_rounds (length bs) bs = [to_block t] /\ leaves t = bs.
Proof. exact join_tree_in_order. Qed.
Print Assumptions c06_join_order.

Theorem c06_join_runs_children_in_order : forall m T K f x y s,
  exec_block m T K (S f) (BJoin x y) s =
  bind (cstep m Join Noop s) (fun s1 => bind (exec_block m T K f x s1)
       (fun s2 => bind (exec_block m T K f y s2) (cstep m End Noop))).
Proof. exact join_seq. Qed.
Print Assumptions c06_join_runs_children_in_order.

Theorem c06_span_merge_keeps_ops : forall bs, flat_items (merge_spans bs None) = flat_items bs.
Proof. exact merge_spans_keeps_ops. Qed.
Print Assumptions c06_span_merge_keeps_ops.

(* repeat.n contributes exactly n copies of its body's block, exec contributes the callee's code *)
Theorem c06_repeat : forall codes k b c,
  c_blocks (compile_node codes (NRepeat k b) c) =
  c_blocks (flush c) ++ repeat (body_block codes b) k /\
  c_span (compile_node codes (NRepeat k b) c) = [].
Proof. exact repeat_contributes_copies. Qed.
Print Assumptions c06_repeat.

Theorem c06_exec_inline : forall codes p c,
  c_blocks (compile_node codes (NExec p) c) = c_blocks (flush c) ++ [nth p codes default_block].
Proof. exact exec_contributes_callee. Qed.
Print Assumptions c06_exec_inline.

Theorem c06_locals_frame_restored : forall fmp n, canon fmp -> fadd (fadd fmp n) (fneg n) = fmp.
Proof. exact fmp_bracket. Qed.
Print Assumptions c06_locals_frame_restored.

(* non-vacuity: `push.1 while.true push.2 end` fails with NotBinary 2 (the loop-exit defect that was
   repaired in processor/src/decoder/mod.rs) *)
Example c06_loop_exit_nonbinary :
  exists s, exec_program 100 1000 (mkProgram (BJoin (BSpan [Push 1]) (BLoop (BSpan [Push 2]))) [] []) [] []
            = Err (NotBinary 2) s.
Proof. eexists. vm_compute. reflexivity. Qed.
