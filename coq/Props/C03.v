(* C03 - honest execution traces satisfy the entire AIR.
   Only statements, [exact], and Print Assumptions.  The per-row part of this property is decided
   by evaluating the real constraint code on real traces (see DESIGN.md); the theorems here cover
   the trace length and the reduction of constraint evaluation to residual constraints. *)
From Coq Require Import ZArith List.
From MV Require Import Vm.TraceLen Air.Expr Air.Frame Gen.AirGen.
Import ListNotations.
Open Scope Z_scope.

Theorem c03_trace_length : forall clk rng chp,
  0 <= clk -> 0 <= rng -> 0 <= chp -> Z.max (Z.max rng (clk + 1)) chp + 1 <= 4294967296 ->
  let l := trace_len clk rng chp in
  clk + 2 <= l /\ rng + 1 <= l /\ chp + 1 <= l /\ is_pow2 l /\
  l < 2 * (Z.max (Z.max rng (clk + 1)) chp + 1).
Proof. exact trace_len_spec. Qed.
Print Assumptions c03_trace_length.

(* on a row that carries opcode [code], every constraint is congruent to its residual: checking
   the residual constraints of the opcode is checking the AIR *)
Theorem c03_residuals_decide : forall e code k,
  row_has_op e code -> (k < length air_main)%nat ->
  eeval e (nth k (residuals_g air_nodes air_main (pe_op code)) (EConst 0)) ==
  nth_z (eval_nodes e air_nodes) (nth k air_main 0).
Proof. intros e code k. apply residuals_g_sound. Qed.
Print Assumptions c03_residuals_decide.
