(* C13 - the decoded operation stream is exactly the program.
   Only statements, [exact], and Print Assumptions. *)
From Coq Require Import ZArith List.
From MV Require Core.BatchProps.
From MV Require Import Core.Op Core.Batch Core.Mast Vm.State Vm.Exec Vm.StreamProps.
Import ListNotations.
Open Scope Z_scope.

(* the batches of a span hold exactly the span's operations, in order *)
Theorem c13_batching_keeps_ops : forall ops, flat_map b_ops (batch_ops ops) = ops.
Proof. exact BatchProps.batch_ops_concat. Qed.
Print Assumptions c13_batching_keeps_ops.

(* executing a batch runs its operations in order and adds nothing but NOOPs *)
Theorem c13_batch_adds_only_noops : forall b, erase (batch_stream b) = erase (b_ops b).
Proof. exact batch_stream_only_adds_noops. Qed.
Print Assumptions c13_batch_adds_only_noops.

(* a span is recorded as SPAN, its batches separated by RESPAN, END *)
Theorem c13_span_shape : forall ops,
  span_stream ops = (Span, Noop) :: span_mid ops ++ [(End, Noop)].
Proof. exact span_stream_shape. Qed.
Print Assumptions c13_span_shape.

(* block starts and ends recorded by any successful execution are properly nested *)
Theorem c13_nested : forall fuel m p inputs advice s',
  exec_program fuel m p inputs advice = Ok s' -> nest 0 (rev (olog s')) = Some 0%nat.
Proof. exact stream_nested. Qed.
Print Assumptions c13_nested.

(* non-vacuity: the recorded stream of a small program with a RESPAN-free span, a split and a loop *)
Example c13_example :
  exists s, exec_program 100 1000
     (mkProgram (BJoin (BSpan [Push 1; Push 0]) (BSplit (BSpan [Add]) (BLoop (BSpan [Pad])))) [] []) [] [] = Ok s /\
  rev (olog s) = [Join; Span; Push 1; Push 0; Noop; Noop; End; Split; Loop; Span; Pad; End; End; End; End].
Proof. eexists. split; vm_compute; reflexivity. Qed.
