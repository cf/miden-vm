(* C05 - instruction semantics match the instruction reference on every stack state.
   Only statements, [exact], and Print Assumptions.  [instr_spec ops k pre f] (Asm/Instr.v) says:
   for EVERY stack of depth >= 16 of canonical elements, with xs its top k elements, running the op
   list the real assembler emits fails with [e] when [pre xs = Some e], and otherwise yields
   [f xs] on top of the untouched remainder (every position, also below 15) with depth >= 16. *)
From Coq Require Import ZArith List Bool String.
From MV Require Import Base.Field Core.Op Vm.Pure Vm.PureProps Vm.State Vm.Step Vm.StepProps Asm.SpecDefs Asm.Instr Asm.StackInstr Asm.FieldInstr Asm.U32Instr Asm.ImmInstr Asm.HintDefs Asm.MoreInstr.
Import ListNotations.
Open Scope Z_scope.

Theorem c05_stack_manipulation :
  (forall n, (n < 16)%nat -> instr_spec (ops_of ("dup." ++ show n)) (n + 1) no_pre (spec_dup n)) /\
  (forall n, (1 <= n < 16)%nat -> instr_spec (ops_of ("swap." ++ show n)) (n + 1) no_pre (spec_swap n)) /\
  (forall n, (2 <= n < 16)%nat -> instr_spec (ops_of ("movup." ++ show n)) (n + 1) no_pre (spec_movup n)) /\
  (forall n, (2 <= n < 16)%nat -> instr_spec (ops_of ("movdn." ++ show n)) (n + 1) no_pre (spec_movdn n)) /\
  (forall n, (n < 4)%nat -> instr_spec (ops_of ("dupw." ++ show n)) (4 * n + 4) no_pre (spec_dupw n)) /\
  (forall n, (1 <= n < 4)%nat -> instr_spec (ops_of ("swapw." ++ show n)) (4 * n + 4) no_pre (spec_swapw n)) /\
  (forall n, (2 <= n < 4)%nat -> instr_spec (ops_of ("movupw." ++ show n)) (4 * n + 4) no_pre (spec_movupw n)) /\
  (forall n, (2 <= n < 4)%nat -> instr_spec (ops_of ("movdnw." ++ show n)) (4 * n + 4) no_pre (spec_movdnw n)) /\
  instr_spec (ops_of "drop") 1 no_pre (fun _ => []) /\
  instr_spec (ops_of "dropw") 4 no_pre (fun _ => []) /\
  instr_spec (ops_of "padw") 0 no_pre (fun _ => [0; 0; 0; 0]) /\
  instr_spec (ops_of "swapdw") 16 no_pre (fun xs => (skipn 8 xs ++ firstn 8 xs)%list) /\
  instr_spec (ops_of "cswap") 3 (fun xs => cond_pre (nz xs 0))
    (fun xs => if nz xs 0 =? 0 then [nz xs 1; nz xs 2] else [nz xs 2; nz xs 1]) /\
  instr_spec (ops_of "cdrop") 3 (fun xs => cond_pre (nz xs 0))
    (fun xs => if nz xs 0 =? 0 then [nz xs 2] else [nz xs 1]) /\
  instr_spec (ops_of "cswapw") 9 (fun xs => cond_pre (nz xs 0))
    (fun xs => if nz xs 0 =? 0 then firstn 8 (skipn 1 xs)
               else (firstn 4 (skipn 5 xs) ++ firstn 4 (skipn 1 xs))%list) /\
  instr_spec (ops_of "cdropw") 9 (fun xs => cond_pre (nz xs 0))
    (fun xs => if nz xs 0 =? 0 then firstn 4 (skipn 5 xs) else firstn 4 (skipn 1 xs)).
Proof.
  exact (conj dup_ok (conj swap_ok (conj movup_ok (conj movdn_ok (conj dupw_ok (conj swapw_ok
        (conj movupw_ok (conj movdnw_ok (conj drop_ok (conj dropw_ok (conj padw_ok (conj swapdw_ok
        (conj cswap_ok (conj cdrop_ok (conj cswapw_ok cdropw_ok))))))))))))))).
Qed.
Print Assumptions c05_stack_manipulation.

Theorem c05_field :
  instr_spec (ops_of "add") 2 no_pre (fun xs => [fadd (nz xs 1) (nz xs 0)]) /\
  instr_spec (ops_of "sub") 2 no_pre (fun xs => [fsub (nz xs 1) (nz xs 0)]) /\
  instr_spec (ops_of "mul") 2 no_pre (fun xs => [fmul (nz xs 1) (nz xs 0)]) /\
  instr_spec (ops_of "div") 2 (fun xs => if nz xs 0 =? 0 then Some PDivZero else None)
    (fun xs => [fmul (nz xs 1) (finv (nz xs 0))]) /\
  instr_spec (ops_of "neg") 1 no_pre (fun xs => [fneg (nz xs 0)]) /\
  instr_spec (ops_of "inv") 1 (fun xs => if nz xs 0 =? 0 then Some PDivZero else None)
    (fun xs => [finv (nz xs 0)]) /\
  instr_spec (ops_of "not") 1 (fun xs => bin_or (nz xs 0) None) (fun xs => [fsub 1 (nz xs 0)]) /\
  instr_spec (ops_of "and") 2 (fun xs => bin_or (nz xs 0) (bin_or (nz xs 1) None))
    (fun xs => [if (nz xs 1 =? 1) && (nz xs 0 =? 1) then 1 else 0]) /\
  instr_spec (ops_of "or") 2 (fun xs => bin_or (nz xs 0) (bin_or (nz xs 1) None))
    (fun xs => [if (nz xs 1 =? 1) || (nz xs 0 =? 1) then 1 else 0]) /\
  instr_spec (ops_of "eq") 2 no_pre (fun xs => [if nz xs 1 =? nz xs 0 then 1 else 0]) /\
  instr_spec (ops_of "assert") 1 (fun xs => if nz xs 0 =? 1 then None else Some (PAssert 0)) (fun _ => []) /\
  instr_spec (ops_of "assertz") 1 (fun xs => if nz xs 0 =? 0 then None else Some (PAssert 0)) (fun _ => []) /\
  instr_spec (ops_of "assert_eq") 2 (fun xs => if nz xs 1 =? nz xs 0 then None else Some (PAssert 0))
    (fun _ => []).
Proof.
  exact (conj add_ok (conj sub_ok (conj mul_ok (conj div_ok (conj neg_ok (conj inv_ok (conj not_ok
        (conj and_ok (conj or_ok (conj eq_ok (conj assert_ok (conj assertz_ok assert_eq_ok)))))))))))).
Qed.
Print Assumptions c05_field.

Theorem c05_u32 :
  instr_spec (ops_of "u32split") 1 no_pre (fun xs => [nz xs 0 / TWO32; nz xs 0 mod TWO32]) /\
  instr_spec (ops_of "u32cast") 1 no_pre (fun xs => [nz xs 0 mod TWO32]) /\
  instr_spec (ops_of "u32assert2") 2
    (fun xs => if negb (u32max_ok (nz xs 0)) then Some (PNotU32 (nz xs 0) 0)
               else if negb (u32max_ok (nz xs 1)) then Some (PNotU32 (nz xs 1) 0) else None)
    (fun xs => xs) /\
  instr_spec (ops_of "u32assert") 1
    (fun xs => if negb (u32max_ok (nz xs 0)) then Some (PNotU32 (nz xs 0) 0) else None) (fun xs => xs) /\
  instr_spec_g (ops_of "u32overflowing_add") 2 g2 no_pre
    (fun xs => [(nz xs 1 + nz xs 0) / TWO32; (nz xs 1 + nz xs 0) mod TWO32]) /\
  instr_spec_g (ops_of "u32wrapping_add") 2 g2 no_pre (fun xs => [(nz xs 1 + nz xs 0) mod TWO32]) /\
  instr_spec_g (ops_of "u32overflowing_add3") 3 g3 no_pre
    (fun xs => [(nz xs 2 + nz xs 1 + nz xs 0) / TWO32; (nz xs 2 + nz xs 1 + nz xs 0) mod TWO32]) /\
  instr_spec_g (ops_of "u32overflowing_mul") 2 g2 no_pre
    (fun xs => [(nz xs 1 * nz xs 0) / TWO32; (nz xs 1 * nz xs 0) mod TWO32]) /\
  instr_spec_g (ops_of "u32wrapping_mul") 2 g2 no_pre (fun xs => [(nz xs 1 * nz xs 0) mod TWO32]) /\
  instr_spec_g (ops_of "u32overflowing_madd") 3 g3 no_pre
    (fun xs => [(nz xs 1 * nz xs 0 + nz xs 2) / TWO32; (nz xs 1 * nz xs 0 + nz xs 2) mod TWO32]) /\
  instr_spec_g (ops_of "u32divmod") 2 g2 (fun xs => if nz xs 0 =? 0 then Some PDivZero else None)
    (fun xs => [nz xs 1 mod nz xs 0; nz xs 1 / nz xs 0]) /\
  instr_spec_g (ops_of "u32div") 2 g2 (fun xs => if nz xs 0 =? 0 then Some PDivZero else None)
    (fun xs => [nz xs 1 / nz xs 0]) /\
  instr_spec_g (ops_of "u32mod") 2 g2 (fun xs => if nz xs 0 =? 0 then Some PDivZero else None)
    (fun xs => [nz xs 1 mod nz xs 0]) /\
  instr_spec (ops_of "u32and") 2 u32_pre2 (fun xs => [Z.land (nz xs 1) (nz xs 0)]) /\
  instr_spec (ops_of "u32xor") 2 u32_pre2 (fun xs => [Z.lxor (nz xs 1) (nz xs 0)]).
Proof.
  exact (conj u32split_ok (conj u32cast_ok (conj u32assert2_ok (conj u32assert_ok
        (conj u32overflowing_add_ok (conj u32wrapping_add_ok (conj u32overflowing_add3_ok
        (conj u32overflowing_mul_ok (conj u32wrapping_mul_ok (conj u32overflowing_madd_ok
        (conj u32divmod_ok (conj u32div_ok (conj u32mod_ok (conj u32and_ok u32xor_ok)))))))))))))).
Qed.
Print Assumptions c05_u32.

(* immediates from an unbounded domain: the expansion is a function of the immediate, it agrees
   with the real assembler on the generated grid, and meets the documented effect for every v *)
Theorem c05_immediates :
  (forall v, canon v -> instr_spec (c_push v) 0 no_pre (fun _ => [v])) /\
  (forall v, canon v -> instr_spec (c_add v) 1 no_pre (fun xs => [fadd (nz xs 0) v])) /\
  (forall v, canon v -> instr_spec (c_sub v) 1 no_pre (fun xs => [fsub (nz xs 0) v])) /\
  (forall v, canon v -> instr_spec (c_mul v) 1 no_pre (fun xs => [fmul (nz xs 0) v])) /\
  (forall v ops, canon v -> c_div v = Some ops ->
     instr_spec ops 1 no_pre (fun xs => [fmul (nz xs 0) (finv v)])) /\
  c_div 0 = None /\
  (forall v, canon v -> instr_spec (c_eq v) 1 no_pre (fun xs => [if nz xs 0 =? v then 1 else 0])).
Proof.
  exact (conj push_imm_ok (conj add_imm_ok (conj sub_imm_ok (conj mul_imm_ok (conj div_imm_ok
        (conj div_imm_zero_rejected eq_imm_ok)))))).
Qed.
Print Assumptions c05_immediates.

(* the stack depth never drops below 16, for every op sequence *)
Theorem c05_depth_floor : forall ops l l',
  (16 <= List.length l)%nat -> pure_ops ops l = POk l' -> (16 <= List.length l')%nat.
Proof. exact pure_ops_depth. Qed.
Print Assumptions c05_depth_floor.

(* elements pushed beyond position 15 come back in LIFO order *)
Theorem c05_lifo : forall xs l, (16 <= List.length l)%nat ->
  pure_ops (map Push xs ++ repeat Drop (List.length xs)) l = POk l.
Proof. exact push_then_drop. Qed.
Print Assumptions c05_lifo.

(* the zero-extended view used above is sound for the real 16-floor semantics *)
Theorem c05_view_sound : forall ops l lv,
  ~ In SDepth ops -> stack_eq l lv -> sim_res (pure_ops ops l) (vpure_ops ops lv).
Proof. exact pure_ops_sim. Qed.
Print Assumptions c05_view_sound.

(* and [pure_op] is what the interpreter runs for these operations *)
Theorem c05_interpreter_uses_pure : forall o s,
  is_pure o = true -> exec_op o s = lift_pure s (pure_op o (stk s)).
Proof. exact exec_op_pure. Qed.
Print Assumptions c05_interpreter_uses_pure.


(* further instructions (Asm/MoreInstr.v): word comparison, field ordering, extension-field
   arithmetic, the remaining u32 arithmetic / comparison / bitwise forms, shifts and rotations by a
   variable amount (for every amount 0..31), pow2 (for every exponent 0..63) *)
Local Open Scope string_scope.
Theorem c05_eqw : instr_spec (ops_of "eqw") 8 no_pre
  (fun xs => (if (nz xs 7 =? nz xs 3) && (nz xs 6 =? nz xs 2) && (nz xs 5 =? nz xs 1) && (nz xs 4 =? nz xs 0) then 1 else 0)%Z
             :: firstn 8 xs).
Proof. exact eqw_ok. Qed.
Print Assumptions c05_eqw.
Theorem c05_neq : instr_spec (ops_of "neq") 2 no_pre (fun xs => [if (nz xs 1 =? nz xs 0)%Z then 0 else 1]).
Proof. exact neq_ok. Qed.
Print Assumptions c05_neq.
Theorem c05_assert_eqw : instr_spec (ops_of "assert_eqw") 8
  (fun xs => if (nz xs 0 =? nz xs 4) && (nz xs 1 =? nz xs 5) && (nz xs 2 =? nz xs 6) && (nz xs 7 =? nz xs 3) then None
             else Some (PAssert 0))%Z
  (fun _ => []).
Proof. exact assert_eqw_ok. Qed.
Print Assumptions c05_assert_eqw.
Theorem c05_ext2add : instr_spec (ops_of "ext2add") 4 no_pre
  (fun xs => [fadd (nz xs 2) (nz xs 0); fadd (nz xs 3) (nz xs 1)]).
Proof. exact ext2add_ok. Qed.
Print Assumptions c05_ext2add.
Theorem c05_ext2neg : instr_spec (ops_of "ext2neg") 2 no_pre (fun xs => [fneg (nz xs 0); fneg (nz xs 1)]).
Proof. exact ext2neg_ok. Qed.
Print Assumptions c05_ext2neg.
Theorem c05_ext2sub : instr_spec (ops_of "ext2sub") 4 no_pre
  (fun xs => [fsub (nz xs 2) (nz xs 0); fsub (nz xs 3) (nz xs 1)]).
Proof. exact ext2sub_ok. Qed.
Print Assumptions c05_ext2sub.
Theorem c05_xor : instr_spec (ops_of "xor") 2 (fun xs => bin_or (nz xs 1) (bin_or (nz xs 0) None))
  (fun xs => [if (nz xs 1 =? 1) || (nz xs 0 =? 1) then (if (nz xs 1 =? 1) && (nz xs 0 =? 1) then 0 else 1) else 0])%Z.
Proof. exact xor_ok. Qed.
Print Assumptions c05_xor.
Theorem c05_u32wrapping_add3 : instr_spec_g (ops_of "u32wrapping_add3") 3 g3 no_pre
    (fun xs => [(nz xs 2 + nz xs 1 + nz xs 0) mod TWO32]).
Proof. exact u32wrapping_add3_ok. Qed.
Print Assumptions c05_u32wrapping_add3.
Theorem c05_u32wrapping_madd : instr_spec_g (ops_of "u32wrapping_madd") 3 g3 no_pre
    (fun xs => [(nz xs 1 * nz xs 0 + nz xs 2) mod TWO32]).
Proof. exact u32wrapping_madd_ok. Qed.
Print Assumptions c05_u32wrapping_madd.
Theorem c05_u32overflowing_sub : instr_spec_g (ops_of "u32overflowing_sub") 2 g2 no_pre
    (fun xs => [if (nz xs 1 <? nz xs 0)%Z then 1 else 0; (nz xs 1 - nz xs 0) mod TWO32]).
Proof. exact u32overflowing_sub_ok. Qed.
Print Assumptions c05_u32overflowing_sub.
Theorem c05_u32wrapping_sub : instr_spec_g (ops_of "u32wrapping_sub") 2 g2 no_pre
    (fun xs => [(nz xs 1 - nz xs 0) mod TWO32]).
Proof. exact u32wrapping_sub_ok. Qed.
Print Assumptions c05_u32wrapping_sub.
Theorem c05_u32lt : instr_spec_g (ops_of "u32lt") 2 g2 no_pre (fun xs => [if (nz xs 1 <? nz xs 0)%Z then 1 else 0]).
Proof. exact u32lt_ok. Qed.
Print Assumptions c05_u32lt.
Theorem c05_u32gt : instr_spec_g (ops_of "u32gt") 2 g2 no_pre (fun xs => [if (nz xs 0 <? nz xs 1)%Z then 1 else 0]).
Proof. exact u32gt_ok. Qed.
Print Assumptions c05_u32gt.
Theorem c05_u32lte : instr_spec_g (ops_of "u32lte") 2 g2 no_pre (fun xs => [if (nz xs 1 <=? nz xs 0)%Z then 1 else 0]).
Proof. exact u32lte_ok. Qed.
Print Assumptions c05_u32lte.
Theorem c05_u32gte : instr_spec_g (ops_of "u32gte") 2 g2 no_pre (fun xs => [if (nz xs 0 <=? nz xs 1)%Z then 1 else 0]).
Proof. exact u32gte_ok. Qed.
Print Assumptions c05_u32gte.
Theorem c05_u32min : instr_spec_g (ops_of "u32min") 2 g2 no_pre (fun xs => [Z.min (nz xs 1) (nz xs 0)]).
Proof. exact u32min_instr_ok. Qed.
Print Assumptions c05_u32min.
Theorem c05_u32max : instr_spec_g (ops_of "u32max") 2 g2 no_pre (fun xs => [Z.max (nz xs 1) (nz xs 0)]).
Proof. exact u32max_instr_ok. Qed.
Print Assumptions c05_u32max.
Theorem c05_u32test : instr_spec (ops_of "u32test") 1 no_pre
  (fun xs => [if (nz xs 0 <? TWO32)%Z then 1 else 0; nz xs 0]).
Proof. exact u32test_ok. Qed.
Print Assumptions c05_u32test.
Theorem c05_u32testw : instr_spec (ops_of "u32testw") 4 no_pre
  (fun xs => (if (nz xs 3 <? TWO32) && (nz xs 2 <? TWO32) && (nz xs 1 <? TWO32) && (nz xs 0 <? TWO32) then 1 else 0)%Z
             :: firstn 4 xs).
Proof. exact u32testw_ok. Qed.
Print Assumptions c05_u32testw.
Theorem c05_u32assertw : instr_spec (ops_of "u32assertw") 4
  (fun xs => if negb (u32max_ok (nz xs 0)) then Some (PNotU32 (nz xs 0) 0)
             else if negb (u32max_ok (nz xs 1)) then Some (PNotU32 (nz xs 1) 0)
             else if negb (u32max_ok (nz xs 2)) then Some (PNotU32 (nz xs 2) 0)
             else if negb (u32max_ok (nz xs 3)) then Some (PNotU32 (nz xs 3) 0) else None)
  (fun xs => xs).
Proof. exact u32assertw_ok. Qed.
Print Assumptions c05_u32assertw.
Theorem c05_u32or : instr_spec_g (ops_of "u32or") 2 g2 no_pre (fun xs => [Z.lor (nz xs 1) (nz xs 0)]).
Proof. exact u32or_ok. Qed.
Print Assumptions c05_u32or.
Theorem c05_u32not : instr_spec_g (ops_of "u32not") 1 g1 no_pre (fun xs => [4294967295 - nz xs 0]).
Proof. exact u32not_ok. Qed.
Print Assumptions c05_u32not.
Theorem c05_is_odd : instr_spec (ops_of "is_odd") 1 no_pre (fun xs => [nz xs 0 mod 2]).
Proof. exact is_odd_ok. Qed.
Print Assumptions c05_is_odd.
Theorem c05_lt : instr_spec (ops_of "lt") 2 no_pre (fun xs => [if (nz xs 1 <? nz xs 0)%Z then 1 else 0]).
Proof. exact lt_ok. Qed.
Print Assumptions c05_lt.
Theorem c05_lte : instr_spec (ops_of "lte") 2 no_pre (fun xs => [if (nz xs 1 <=? nz xs 0)%Z then 1 else 0]).
Proof. exact lte_ok. Qed.
Print Assumptions c05_lte.
Theorem c05_gt : instr_spec (ops_of "gt") 2 no_pre (fun xs => [if (nz xs 0 <? nz xs 1)%Z then 1 else 0]).
Proof. exact gt_ok. Qed.
Print Assumptions c05_gt.
Theorem c05_gte : instr_spec (ops_of "gte") 2 no_pre (fun xs => [if (nz xs 0 <=? nz xs 1)%Z then 1 else 0]).
Proof. exact gte_ok. Qed.
Print Assumptions c05_gte.
Theorem c05_ext2mul : instr_spec (ops_of "ext2mul") 4 no_pre
  (fun xs => let c := ext_mul (nz xs 3, nz xs 2) (nz xs 1, nz xs 0) in [snd c; fst c]).
Proof. exact ext2mul_ok. Qed.
Print Assumptions c05_ext2mul.
Theorem c05_u32shl : instr_spec_g (ops_of "u32shl") 2 gsh32 no_pre (fun xs => [(nz xs 1 * 2 ^ nz xs 0) mod TWO32]).
Proof. exact u32shl_ok. Qed.
Print Assumptions c05_u32shl.
Theorem c05_u32shr : instr_spec_g (ops_of "u32shr") 2 gsh32 no_pre (fun xs => [nz xs 1 / 2 ^ nz xs 0]).
Proof. exact u32shr_ok. Qed.
Print Assumptions c05_u32shr.
Theorem c05_u32rotl : instr_spec_g (ops_of "u32rotl") 2 gsh32 no_pre
  (fun xs => [(nz xs 1 * 2 ^ nz xs 0) mod TWO32 + (nz xs 1 * 2 ^ nz xs 0) / TWO32]).
Proof. exact u32rotl_ok. Qed.
Print Assumptions c05_u32rotl.
Theorem c05_u32rotr : instr_spec_g (ops_of "u32rotr") 2 gsh32 no_pre
  (fun xs => [nz xs 1 / 2 ^ nz xs 0 + (nz xs 1 mod 2 ^ nz xs 0) * 2 ^ (32 - nz xs 0)]).
Proof. exact u32rotr_ok. Qed.
Print Assumptions c05_u32rotr.
Theorem c05_pow2 : instr_spec_g (ops_of "pow2") 1 g64 no_pre (fun xs => [2 ^ nz xs 0]).
Proof. exact pow2_ok. Qed.
Print Assumptions c05_pow2.

(* shifts and rotations by an immediate amount: every form u32shl.N, u32shr.N, u32rotl.N, u32rotr.N, N = 0..31 *)
Theorem c05_u32shl_imm : forall n, (n < 32)%nat ->
  instr_spec_g (ops_of ("u32shl." ++ show n)) 1 g1 no_pre (fun xs => [(nz xs 0 * 2 ^ Z.of_nat n) mod TWO32]).
Proof. exact u32shl_imm_ok. Qed.
Print Assumptions c05_u32shl_imm.
Theorem c05_u32shr_imm : forall n, (n < 32)%nat ->
  instr_spec_g (ops_of ("u32shr." ++ show n)) 1 g1 no_pre (fun xs => [nz xs 0 / 2 ^ Z.of_nat n]).
Proof. exact u32shr_imm_ok. Qed.
Print Assumptions c05_u32shr_imm.
Theorem c05_u32rotl_imm : forall n, (n < 32)%nat ->
  instr_spec_g (ops_of ("u32rotl." ++ show n)) 1 g1 no_pre
    (fun xs => [(nz xs 0 * 2 ^ Z.of_nat n) mod TWO32 + (nz xs 0 * 2 ^ Z.of_nat n) / TWO32]).
Proof. exact u32rotl_imm_ok. Qed.
Print Assumptions c05_u32rotl_imm.
Theorem c05_u32rotr_imm : forall n, (n < 32)%nat ->
  instr_spec_g (ops_of ("u32rotr." ++ show n)) 1 g1 no_pre
    (fun xs => [nz xs 0 / 2 ^ Z.of_nat n + (nz xs 0 mod 2 ^ Z.of_nat n) * 2 ^ (32 - Z.of_nat n)]).
Proof. exact u32rotr_imm_ok. Qed.
Print Assumptions c05_u32rotr_imm.

(* non-vacuity: the generated table really contains these instructions, and a concrete stack
   meets the hypotheses *)
Example c05_table_nonempty :
  ops_of "add" = [Add] /\ ops_of "dup.8" = [Pad; Dup9; Add] /\ accepted "u32wrapping_add" = true /\
  rejected "div.0" = true.
Proof. vm_compute. repeat split. Qed.
Example c05_concrete :
  pure_ops (ops_of "swap.3") [1;2;3;4;5;6;7;8;9;10;11;12;13;14;15;16;17] =
  POk [4;2;3;1;5;6;7;8;9;10;11;12;13;14;15;16;17].
Proof. vm_compute. reflexivity. Qed.
