(* C01 - every successful execution is provable and its proof verifies (the decision logic of it).
   Only statements, [exact], and Print Assumptions. *)
From Coq Require Import ZArith List.
From MV Require Import Gen.OptGen Air.ProofParams.
Import ListNotations.
Open Scope Z_scope.

(* the four standard configurations (hash function, proof options) are among what verify() accepts *)
Theorem c01_standard_sets_accepted : forallb (fun s => accepts (fst s) (snd s)) standard_sets = true.
Proof. exact standard_sets_accepted. Qed.
Print Assumptions c01_standard_sets_accepted.

(* the reported (conjectured) security of a standard configuration is exactly the configured one
   for every trace of at most 2^28 rows (96-bit sets) resp. 2^59 rows (128-bit sets) *)
Theorem c01_security_96 : forall h o k, In (h, o) standard_sets -> promised o = 96 -> 0 <= k <= 28 ->
  reported_security h o k = 96.
Proof. exact security_96. Qed.
Print Assumptions c01_security_96.
Theorem c01_security_128 : forall h o k, In (h, o) standard_sets -> promised o = 128 -> 0 <= k <= 59 ->
  reported_security h o k = 128.
Proof. exact security_128. Qed.
Print Assumptions c01_security_128.

(* and the bound is sharp: a 96-bit proof over 2^29 rows would report 95 bits (not reachable by a
   test: such a trace does not fit in memory here) *)
Theorem c01_security_96_refuted : reported_security 0 REGULAR_96_BITS 29 = 95.
Proof. exact security_96_refuted. Qed.
Print Assumptions c01_security_96_refuted.
