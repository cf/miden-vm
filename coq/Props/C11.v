(* C11 - assembly is self-contained and independent of library order and re-export paths.
   Only statements, [exact], and Print Assumptions. *)
From Coq Require Import ZArith List Permutation.
From MV Require Import Asm.Linker Asm.LinkerProps.
Import ListNotations.
Open Scope Z_scope.

(* every call, syscall or procref target that occurs in an assembled program - in its code or in
   the code of anything in its code-block table - has its body in the table, for every library
   set, kernel, program and nesting of modules *)
Theorem c11_self_contained : forall L kernel,
  (forall n cp, find_kernel n kernel = Some cp -> closed (snd cp) (fst cp)) ->
  forall fuel ps body c T, lk_program L kernel fuel ps body = Some (c, T) -> closed T c.
Proof. exact program_self_contained. Qed.
Print Assumptions c11_self_contained.

(* a procedure reached through a re-export is the procedure the re-export names *)
Theorem c11_reexport : forall L kernel f m md n m' n',
  find_mod m L = Some md -> find_reexp n (m_reexp md) = Some (m', n') ->
  forall cp, lk_lookup L kernel (S f) m n = Some cp -> lk_lookup L kernel f m' n' = Some cp.
Proof. exact reexport_is_target. Qed.
Print Assumptions c11_reexport.

(* the order in which libraries were added is irrelevant (module paths are unique) *)
Theorem c11_library_order : forall (L L' : libs) kernel,
  Permutation L L' -> NoDup (map fst L) ->
  forall fuel ps body, lk_program L' kernel fuel ps body = lk_program L kernel fuel ps body.
Proof. exact library_order_irrelevant. Qed.
Print Assumptions c11_library_order.
