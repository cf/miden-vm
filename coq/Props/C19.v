(* C19 - decoders of untrusted bytes accept only what they can re-encode.
   Only statements, [exact], and Print Assumptions. *)
From Coq Require Import ZArith List.
From MV Require Import Serde.CodecProps Serde.Containers Serde.Ast Serde.AstProps.
Import ListNotations.
Open Scope Z_scope.

(* every decoder of the schema language is a total function; what it accepts is well typed, is
   the unique encoding of the value followed by the untouched rest, and re-encodes to bytes that
   decode to the same value with nothing left *)
Theorem c19_accepted_is_canonical : forall rec fuel s bs v r,
  Codec.dec rec fuel s bs = Some (v, r) -> Codec.wt rec s v = true /\ bs = Codec.enc rec s v ++ r /\ (Codec.need rec s v <= fuel)%nat.
Proof. exact accepted_is_canonical. Qed.
Print Assumptions c19_accepted_is_canonical.

Theorem c19_reencode : forall rec fuel s bs v r,
  Codec.dec rec fuel s bs = Some (v, r) -> Codec.dec rec fuel s (Codec.enc rec s v) = Some (v, []).
Proof. exact reencode. Qed.
Print Assumptions c19_reencode.

(* the answer does not depend on the fuel once there is enough of it *)
Theorem c19_fuel_irrelevant : forall rec f f' s bs v r,
  Codec.dec rec f s bs = Some (v, r) -> (f <= f')%nat -> Codec.dec rec f' s bs = Some (v, r).
Proof. exact dec_fuel_mono. Qed.
Print Assumptions c19_fuel_irrelevant.

(* program and module ASTs and libraries, with the writer's tables on the way out *)
Theorem c19_program_reencode : forall fuel bs v r,
  Codec.dec S_node fuel S_program bs = Some (v, r) ->
  Codec.wt S_node S_program v = true /\ bs = Codec.enc S_node_w S_program v ++ r /\
  Codec.dec S_node fuel S_program (Codec.enc S_node_w S_program v) = Some (v, []).
Proof. exact program_reencode. Qed.
Print Assumptions c19_program_reencode.

Theorem c19_module_reencode : forall fuel bs v r,
  Codec.dec S_node fuel S_module bs = Some (v, r) ->
  Codec.wt S_node S_module v = true /\ bs = Codec.enc S_node_w S_module v ++ r /\
  Codec.dec S_node fuel S_module (Codec.enc S_node_w S_module v) = Some (v, []).
Proof. exact module_reencode. Qed.
Print Assumptions c19_module_reencode.

Theorem c19_library_reencode : forall fuel bs v r,
  Codec.dec S_node fuel S_lib_head bs = Some (v, r) ->
  Codec.wt S_node S_lib_head v = true /\ bs = Codec.enc S_node_w S_lib_head v ++ r /\
  Codec.dec S_node fuel S_lib_head (Codec.enc S_node_w S_lib_head v) = Some (v, []).
Proof. exact lib_head_reencode. Qed.
Print Assumptions c19_library_reencode.

(* stack inputs, kernels, program info *)
Theorem c19_data_reencode : forall s bs v r,
  Containers.dec s bs = Some (v, r) ->
  Containers.wt s v = true /\ bs = Containers.enc s v ++ r /\ Containers.dec s (Containers.enc s v) = Some (v, []).
Proof. exact data_reencode. Qed.
Print Assumptions c19_data_reencode.

(* stack outputs: the decoder validates like the constructor, and what it accepts re-encodes *)
Theorem c19_stack_outputs_reencode : forall bs so r,
  so_dec bs = Some (so, r) -> so_dec (so_enc so) = Some (so, []).
Proof. exact so_reencode. Qed.
Print Assumptions c19_stack_outputs_reencode.

(* values that are not canonical field elements are rejected *)
Theorem c19_stack_outputs_reject : forall st ad x,
  In x st \/ In x ad -> canonical x = false -> so_new st ad = None.
Proof. exact so_new_rejects_noncanonical. Qed.
Print Assumptions c19_stack_outputs_reject.

Theorem c19_stack_inputs_reject : forall l x, In x l -> canonical x = false -> si_try l = None.
Proof. exact si_try_rejects_noncanonical. Qed.
Print Assumptions c19_stack_inputs_reject.
