(* C04 - the AIR rejects any deviation from an operation's defined effect.
   Only statements, [exact], and Print Assumptions.  All theorems are about coq/Gen/AirGen.v, the
   constraint system obtained on every run by executing /repo's ProcessorAir::evaluate_transition
   over a symbolic field element.  [row_has_op e c]: the op bits (and the two degree-reduction
   columns) of the current row encode opcode c; [constraints_hold e]: every main transition
   constraint evaluates to 0 on the row pair e. *)
From Coq Require Import ZArith List.
From MV Require Import Base.Field Base.Prime Core.Op Air.Expr Air.Frame Air.StackSound Air.SystemSound Air.U32Sound Air.DepthSound Gen.AirGen.
Import ListNotations.
Open Scope Z_scope.

(* the modulus is prime (used for every "x (x - 1) = 0 implies x binary" and inverse argument) *)
Theorem c04_modulus_prime : Znumtheory.prime P.
Proof. exact P_prime. Qed.
Print Assumptions c04_modulus_prime.

(* operations whose next row is an explicit function of the current row: whenever the constraints
   vanish, the next stack cells (16, or 15 for left shifts whose last cell comes from the overflow
   table) are congruent to the result of the VM model's operation on the current cells *)
Theorem c04_explicit_ops :
  air_matches Noop 16 /\
  air_matches Neg 16 /\
  air_matches Incr 16 /\
  air_matches Ext2Mul 16 /\
  air_matches Pad 16 /\
  air_matches Dup0 16 /\
  air_matches Dup1 16 /\
  air_matches Dup2 16 /\
  air_matches Dup3 16 /\
  air_matches Dup4 16 /\
  air_matches Dup5 16 /\
  air_matches Dup6 16 /\
  air_matches Dup7 16 /\
  air_matches Dup9 16 /\
  air_matches Dup11 16 /\
  air_matches Dup13 16 /\
  air_matches Dup15 16 /\
  air_matches Swap 16 /\
  air_matches SwapW 16 /\
  air_matches SwapW2 16 /\
  air_matches SwapW3 16 /\
  air_matches SwapDW 16 /\
  air_matches MovUp2 16 /\
  air_matches MovUp3 16 /\
  air_matches MovUp4 16 /\
  air_matches MovUp5 16 /\
  air_matches MovUp6 16 /\
  air_matches MovUp7 16 /\
  air_matches MovUp8 16 /\
  air_matches MovDn2 16 /\
  air_matches MovDn3 16 /\
  air_matches MovDn4 16 /\
  air_matches MovDn5 16 /\
  air_matches MovDn6 16 /\
  air_matches MovDn7 16 /\
  air_matches MovDn8 16 /\
  air_matches Not 16 /\
  air_matches Add 15 /\
  air_matches Mul 15 /\
  air_matches Drop 15 /\
  air_matches And 15 /\
  air_matches Or 15 /\
  air_matches CSwap 15 /\
  air_matches CSwapW 15.
Proof.
  exact ((conj noop_sound (conj neg_sound (conj incr_sound (conj ext2mul_sound (conj pad_sound (conj dup0_sound (conj dup1_sound (conj dup2_sound (conj dup3_sound (conj dup4_sound (conj dup5_sound (conj dup6_sound (conj dup7_sound (conj dup9_sound (conj dup11_sound (conj dup13_sound (conj dup15_sound (conj swap_sound (conj swapw_sound (conj swapw2_sound (conj swapw3_sound (conj swapdw_sound (conj movup2_sound (conj movup3_sound (conj movup4_sound (conj movup5_sound (conj movup6_sound (conj movup7_sound (conj movup8_sound (conj movdn2_sound (conj movdn3_sound (conj movdn4_sound (conj movdn5_sound (conj movdn6_sound (conj movdn7_sound (conj movdn8_sound (conj not_sound (conj add_sound (conj mul_sound (conj drop_sound (conj and_sound (conj or_sound (conj cswap_sound cswapw_sound)))))))))))))))))))))))))))))))))))))))))))).
Qed.
Print Assumptions c04_explicit_ops.

(* operands that must be binary are binary in every accepted row *)
Theorem c04_binary_operands :
  (forall e, row_has_op e 5 -> constraints_hold e -> scur e 0 == 0 \/ scur e 0 == 1) /\
  (forall e, row_has_op e 36 -> constraints_hold e ->
     (scur e 0 == 0 \/ scur e 0 == 1) /\ (scur e 1 == 0 \/ scur e 1 == 1)) /\
  (forall e, row_has_op e 37 -> constraints_hold e ->
     (scur e 0 == 0 \/ scur e 0 == 1) /\ (scur e 1 == 0 \/ scur e 1 == 1)) /\
  (forall e, row_has_op e 42 -> constraints_hold e -> scur e 0 == 0 \/ scur e 0 == 1) /\
  (forall e, row_has_op e 43 -> constraints_hold e -> scur e 0 == 0 \/ scur e 0 == 1).
Proof.
  exact (conj not_operand_binary (conj and_operands_binary (conj or_operands_binary
        (conj cswap_condition_binary cswapw_condition_binary)))).
Qed.
Print Assumptions c04_binary_operands.

(* system operations: the clock advances on every row; CLK, SDEPTH, FMPADD, FMPUPDATE, ASSERT *)
Theorem c04_system_ops :
  (forall e, constraints_hold e -> nxt e CLK_COL == cur e CLK_COL + 1) /\
  (forall e, row_has_op e 63 -> constraints_hold e ->
     snxt e 0 == cur e CLK_COL /\ nxt e CLK_COL == cur e CLK_COL + 1 /\
     Forall2 cong (map (fun i => snxt e (Z.of_nat i)) (seq 1 15)) (map (fun i => scur e (Z.of_nat i)) (seq 0 15))) /\
  (forall e, row_has_op e 62 -> constraints_hold e -> snxt e 0 == cur e B0_COL) /\
  (forall e, row_has_op e 6 -> constraints_hold e -> snxt e 0 == scur e 0 + cur e FMP_COL) /\
  (forall e, row_has_op e 47 -> constraints_hold e -> nxt e FMP_COL == cur e FMP_COL + scur e 0) /\
  (forall e, row_has_op e 32 -> constraints_hold e -> scur e 0 == 1).
Proof.
  exact (conj clk_increments (conj clk_op_sound (conj sdepth_op_sound (conj fmpadd_op_sound
        (conj fmpupdate_op_sound assert_op_sound))))).
Qed.
Print Assumptions c04_system_ops.

(* u32 operations with the element-validity check: with range-checked limbs and 32-bit operands
   the next cells are the unique 32-bit decomposition of the exact integer result; the alias
   result + p is rejected *)
Theorem c04_u32_validity :
  (forall e, row_has_op e 78 -> constraints_hold e ->
     limb (helper e 0) -> limb (helper e 1) -> limb (helper e 2) -> limb (helper e 3) ->
     0 <= scur e 0 < TWO32 -> 0 <= scur e 1 < TWO32 -> 0 <= scur e 2 < TWO32 ->
     canon (snxt e 0) -> canon (snxt e 1) ->
     snxt e 0 = (scur e 0 * scur e 1 + scur e 2) / TWO32 /\
     snxt e 1 = (scur e 0 * scur e 1 + scur e 2) mod TWO32) /\
  (forall e, row_has_op e 68 -> constraints_hold e ->
     limb (helper e 0) -> limb (helper e 1) -> limb (helper e 2) -> limb (helper e 3) ->
     0 <= scur e 0 < TWO32 -> 0 <= scur e 1 < TWO32 ->
     canon (snxt e 0) -> canon (snxt e 1) ->
     snxt e 0 = (scur e 0 * scur e 1) / TWO32 /\ snxt e 1 = (scur e 0 * scur e 1) mod TWO32) /\
  (forall e, row_has_op e 72 -> constraints_hold e ->
     limb (helper e 0) -> limb (helper e 1) -> limb (helper e 2) -> limb (helper e 3) ->
     canon (scur e 0) -> canon (snxt e 0) -> canon (snxt e 1) ->
     snxt e 0 = scur e 0 / TWO32 /\ snxt e 1 = scur e 0 mod TWO32).
Proof. exact (conj u32madd_sound (conj u32mul_sound u32split_sound)). Qed.
Print Assumptions c04_u32_validity.

(* depth bookkeeping for every opcode of each shift class *)
Theorem c04_depth :
  Forall left_shift_ok [32; 33; 34; 35; 36; 37; 38; 39; 41; 42; 43; 44; 45; 46; 47; 76; 78; 84; 85] /\
  Forall right_shift_ok [48; 49; 50; 51; 52; 53; 54; 55; 56; 57; 58; 59; 60; 61; 62; 63; 72; 100] /\
  Forall no_shift_ok [0; 1; 2; 3; 4; 5; 6; 7; 8; 10; 11; 12; 13; 24; 25; 28; 29; 30; 64; 66; 68; 70; 74; 80; 86; 87].
Proof. exact (conj left_shift_ops (conj right_shift_ops no_shift_ops)). Qed.
Print Assumptions c04_depth.

(* the partial evaluator the above rest on is sound *)
Theorem c04_partial_evaluation_sound : forall e pe nodes i,
  agrees e pe -> eeval e (nth i (pe_nodes pe nodes) (EConst 0)) == nth i (eval_nodes e nodes) 0.
Proof. exact pe_sound. Qed.
Print Assumptions c04_partial_evaluation_sound.
