(* C18 - standard-library memory and stack utilities keep their contracts (the part modelled).
   Only statements, [exact], and Print Assumptions. *)
From Coq Require Import ZArith List.
From MV Require Import Asm.StdUtil.
Import ListNotations.
Open Scope Z_scope.

(* truncate_stack (save 16, drop 16, drop words until the depth is 16, restore): for EVERY stack of
   depth >= 16 the result is exactly the original top 16 elements *)
Theorem c18_truncate_stack : forall l, (16 <= length l)%nat -> truncate_stack l = firstn 16 l.
Proof. exact truncate_stack_spec. Qed.
Print Assumptions c18_truncate_stack.

(* memcopy (one read then one write per word, ascending): for every length, pointers and memory,
   when write_ptr <= read_ptr or the ranges are disjoint every destination word holds the source
   word and no other address changes *)
Theorem c18_memcopy : forall n r w m,
  (w <= r \/ r + Z.of_nat n <= w) ->
  (forall i, 0 <= i < Z.of_nat n -> memcopy n r w m (w + i) = m (r + i)) /\
  (forall x, (x < w \/ w + Z.of_nat n <= x) -> memcopy n r w m x = m x).
Proof. exact memcopy_spec. Qed.
Print Assumptions c18_memcopy.

Theorem c18_memcopy_zero : forall r w m, memcopy 0 r w m = m.
Proof. exact memcopy_zero. Qed.
Print Assumptions c18_memcopy_zero.
