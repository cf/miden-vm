(* C12 - lookups between trace components balance.
   Only statements, [exact], and Print Assumptions. *)
From Coq Require Import ZArith List Permutation.
From MV Require Import Base.Field Vm.State Vm.Exec Air.Bus Air.BusExec.
Import ListNotations.
Open Scope Z_scope.

(* when the multiset of requests equals the multiset of responses, the two running products agree
   for EVERY choice of challenges (rows of any width) *)
Theorem c12_bus_balanced : forall alphas (requests responses : list row),
  Permutation requests responses ->
  fprod (map (encode alphas) requests) = fprod (map (encode alphas) responses).
Proof. exact bus_balanced. Qed.
Print Assumptions c12_bus_balanced.

(* hence a bus column that is multiplied by responses and divided by requests ends at its initial
   value (the products of the requests being invertible) *)
Theorem c12_bus_terminal : forall alphas requests responses b0 v,
  Permutation requests responses ->
  fmul v (fprod (map (encode alphas) requests)) = fmul b0 (fprod (map (encode alphas) responses)) ->
  forall qinv, fmul (fprod (map (encode alphas) requests)) qinv = 1 ->
  fmul v 1 = fmul b0 1.
Proof. exact bus_terminal. Qed.
Print Assumptions c12_bus_terminal.

(* the range checker's running sum: equal multisets give equal sums for every challenge *)
Theorem c12_logup_balanced : forall (term : Z -> Z) (lookups table : list Z),
  Permutation lookups table -> fsum (map term lookups) = fsum (map term table).
Proof. exact logup_balanced. Qed.
Print Assumptions c12_logup_balanced.

(* a virtual table that is used as a stack and ends empty has removed exactly what it added *)
Theorem c12_table_returns : forall alphas evs,
  run_stack evs [] = Some [] ->
  fprod (map (encode alphas) (adds evs)) = fprod (map (encode alphas) (removes evs)).
Proof. exact table_returns. Qed.
Print Assumptions c12_table_returns.

(* in every successful execution of the interpreter model the block stack table - a row added at
   every block start, the row of the latest open block removed at every END - ends empty, so its
   column returns to its initial value whatever the challenges *)
Theorem c12_block_table : forall fuel m p inputs advice s' alphas,
  exec_program fuel m p inputs advice = Ok s' ->
  run_stack (block_events (rev (olog s'))) [] = Some [] /\
  fprod (map (encode alphas) (adds (block_events (rev (olog s'))))) =
  fprod (map (encode alphas) (removes (block_events (rev (olog s'))))).
Proof. exact block_table_both. Qed.
Print Assumptions c12_block_table.
