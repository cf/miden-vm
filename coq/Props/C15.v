(* C15 - the cycle limit is enforced exactly.  Only statements, [exact], and Print Assumptions. *)
From Coq Require Import ZArith List.
From MV Require Import Core.Op Core.Mast Vm.State Vm.Exec Vm.ExecProps Vm.Options Gen.ConstGen.
Import ListNotations.
Open Scope Z_scope.

(* If a run succeeds (under any limit M) with final clock n, then under limit m it succeeds with
   the same final state exactly when n <= m, and otherwise stops with CycleLimit m after the clock
   has been incremented m + 1 times (no cycle beyond the limit has an effect). *)
Theorem c15_exact : forall fuel p inputs advice M s',
  exec_program fuel M p inputs advice = Ok s' ->
  forall m, 0 <= m ->
    (clk s' <= m -> exec_program fuel m p inputs advice = Ok s') /\
    (m < clk s' -> exists s2, exec_program fuel m p inputs advice = Err (CycleLimit m) s2
                              /\ clk s2 = m + 1).
Proof. exact exec_limit_exact. Qed.
Print Assumptions c15_exact.

(* Every program, terminating or not, stops: with fuel 2m + 4 the interpreter never reports
   OutOfFuel, so its result is a final state or a VM error (CycleLimit among them). *)
Theorem c15_total : forall p inputs advice m (fuel : nat),
  0 <= m -> (2 * Z.to_nat (m + 1) + 1 < fuel)%nat ->
  forall s1, exec_program fuel m p inputs advice <> Err OutOfFuel s1.
Proof. exact exec_total. Qed.
Print Assumptions c15_total.

(* Option sets are refused exactly when the maximum is below the minimum trace length or below
   the expected cycles. *)
Theorem c15_options : forall mc e,
  let m := match mc with Some m => m | None => U32_MAX end in
  exec_options_new mc e = None <-> (m < MIN_TRACE_LEN \/ m < e).
Proof. exact exec_options_refused. Qed.
Print Assumptions c15_options.

(* non-vacuity: an unbounded loop meets the hypotheses of c15_total and is stopped by the limit;
   a terminating program meets those of c15_exact *)
Definition inf_loop : program :=
  mkProgram (BJoin (BSpan [Push 1]) (BLoop (BSpan [Push 1]))) [] [].
Example c15_unbounded_stops :
  exists s, exec_program 204 100 inf_loop [] [] = Err (CycleLimit 100) s /\ clk s = 101.
Proof. eexists. split; vm_compute; reflexivity. Qed.
Example c15_terminating :
  exists s, exec_program 50 1000 (mkProgram (BSpan [Push 1; Push 2; Add]) [] []) [] [] = Ok s
            /\ clk s = 6.
Proof. eexists. split; vm_compute; reflexivity. Qed.
