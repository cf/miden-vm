(* C09 - prover-supplied hints cannot change results.
   Only statements, [exact], and Print Assumptions. *)
From Coq Require Import ZArith List String.
From MV Require Import Base.Field Core.Op Vm.PureProps Vm.State Vm.Step Vm.AdviceProps Asm.Instr Asm.SpecDefs Asm.HintDefs Asm.HintInstr Asm.U64Instr Asm.U64Div.
Import ListNotations.
Open Scope Z_scope.
Open Scope string_scope.

(* For the operation lists the real assembler emits (Gen/AsmGen.v, regenerated on every run), with
   the advice pops replaced by ARBITRARY canonical field elements: whenever the run completes,
   the stack holds the bit count of the operand - no hint makes it complete with anything else -
   and the rest of the stack (every position) is untouched. *)
Theorem c09_u32clz : hint_sound (ops_of "u32clz") 1 g1 (fun xs => [clz32 (nz xs 0)]).
Proof. exact u32clz_sound. Qed.
Print Assumptions c09_u32clz.
Theorem c09_u32clo : hint_sound (ops_of "u32clo") 1 g1 (fun xs => [clo32 (nz xs 0)]).
Proof. exact u32clo_sound. Qed.
Print Assumptions c09_u32clo.
Theorem c09_u32ctz : hint_sound (ops_of "u32ctz") 1 g1 (fun xs => [ctz32 (nz xs 0)]).
Proof. exact u32ctz_sound. Qed.
Print Assumptions c09_u32ctz.
Theorem c09_u32cto : hint_sound (ops_of "u32cto") 1 g1 (fun xs => [cto32 (nz xs 0)]).
Proof. exact u32cto_sound. Qed.
Print Assumptions c09_u32cto.

(* ilog2: the result is floor(log2 n) for every non-zero field element n, whatever the hint *)
Theorem c09_ilog2 : hint_sound (ops_of "ilog2") 1 (fun _ => true) (fun xs => [Z.log2 (nz xs 0)]).
Proof. exact ilog2_sound. Qed.
Print Assumptions c09_ilog2.

(* ext2inv: whatever pair the host supplies, a completed run leaves b with a * b = 1 in the
   quadratic extension; ext2div multiplies by such an inverse *)
Theorem c09_ext2inv : forall h1 h2, canon h1 -> canon h2 ->
  view_post (hinted (ops_of "ext2inv") [h1; h2]) (fun _ => true)
    (fun l lv => ext_mul (nz l 1, nz l 0) (nz lv 1, nz lv 0) = (1, 0) /\ stack_eq (skipn 2 lv) (skipn 2 l)).
Proof. exact ext2inv_view. Qed.
Print Assumptions c09_ext2inv.
Theorem c09_ext2div : forall h1 h2, canon h1 -> canon h2 ->
  view_post (hinted (ops_of "ext2div") [h1; h2]) (fun _ => true)
    (fun l lv => exists b0 b1, ext_mul (nz l 1, nz l 0) (b0, b1) = (1, 0) /\
                               (nz lv 1, nz lv 0) = ext_mul (nz l 3, nz l 2) (b0, b1) /\
                               stack_eq (skipn 2 lv) (skipn 4 l)).
Proof. exact ext2div_view. Qed.
Print Assumptions c09_ext2div.

(* order in which advice arrives: a pop is a push of the head of the advice stack, which loses
   exactly that element; adv_loadw puts the first-popped element deepest; adv_pipe writes the
   first word to the address and the second to the next one *)
Theorem c09_advpop : forall s h r s',
  adv s = h :: r -> exec_op AdvPop s = Ok s' -> stk s' = h :: stk s /\ adv s' = r.
Proof. exact advpop_stack. Qed.
Print Assumptions c09_advpop.
Theorem c09_advpopw : forall s t0 t1 t2 t3 r s',
  adv s = t0 :: t1 :: t2 :: t3 :: r -> exec_op AdvPopW s = Ok s' ->
  stk s' = t3 :: t2 :: t1 :: t0 :: skipn 4 (stk s) /\ adv s' = r.
Proof. exact advpopw_stack. Qed.
Print Assumptions c09_advpopw.
Theorem c09_pipe : forall s a0 a1 a2 a3 b0 b1 b2 b3 r s',
  adv s = a0 :: a1 :: a2 :: a3 :: b0 :: b1 :: b2 :: b3 :: r -> exec_op Pipe s = Ok s' ->
  let a := get s 12%nat in
  adv s' = r /\
  firstn 8 (stk s') = [b3; b2; b1; b0; a3; a2; a1; a0] /\
  mem_read s' (ctx s) a = [a0; a1; a2; a3] /\
  (a + 1 <> a -> mem_read s' (ctx s) (a + 1) = [b0; b1; b2; b3]).
Proof. exact pipe_effect. Qed.
Print Assumptions c09_pipe.

(* the 64-bit division procedures of the standard library (operation lists of Gen/StdGen.v): quotient
   and remainder limbs are hints; for EVERY four canonical field elements the host may supply, a
   completed run leaves the true quotient / remainder of the operands and the rest of the stack
   untouched *)
Theorem c09_u64_div : hint_sound (std_ops_of "u64::div") 4 g4 (fun xs => limbs64 (A64 xs / B64 xs)).
Proof. exact u64_div_hint_sound. Qed.
Print Assumptions c09_u64_div.
Theorem c09_u64_mod : hint_sound (std_ops_of "u64::mod") 4 g4 (fun xs => limbs64 (A64 xs mod B64 xs)).
Proof. exact u64_mod_hint_sound. Qed.
Print Assumptions c09_u64_mod.
Theorem c09_u64_divmod : hint_sound (std_ops_of "u64::divmod") 4 g4
  (fun xs => (limbs64 (A64 xs mod B64 xs) ++ limbs64 (A64 xs / B64 xs))%list).
Proof. exact u64_divmod_hint_sound. Qed.
Print Assumptions c09_u64_divmod.
