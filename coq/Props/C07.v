(* C07 - contexts isolate memory and stack; memory is zero-initialised word RAM.
   Only statements, [exact], and Print Assumptions. *)
From Coq Require Import ZArith List.
From MV Require Import Base.Field Core.Op Core.Rpo Core.RpoCheck Core.Mast Gen.ConstGen Vm.State Vm.Step Vm.Exec Vm.MemProps Vm.CallProps.
Import ListNotations.
Open Scope Z_scope.

Theorem c07_read_fresh : forall inputs advice c a, mem_read (init_state inputs advice) c a = ZERO_WORD.
Proof. exact read_fresh. Qed.
Print Assumptions c07_read_fresh.

Theorem c07_read_after_write : forall s c a w, mem_read (mem_write s c a w) c a = w.
Proof. exact read_after_write. Qed.
Print Assumptions c07_read_after_write.

Theorem c07_write_other : forall s c a w c' a',
  (c, a) <> (c', a') -> mem_read (mem_write s c a w) c' a' = mem_read s c' a'.
Proof. exact write_other. Qed.
Print Assumptions c07_write_other.

(* no operation ever changes the memory of a context other than the current one *)
Theorem c07_context_isolation : forall o s s' c a,
  exec_op o s = Ok s' -> c <> ctx s -> mem_read s' c a = mem_read s c a.
Proof. exact exec_op_other_ctx. Qed.
Print Assumptions c07_context_isolation.

Theorem c07_element_store : forall s s',
  exec_op MStore s = Ok s' ->
  let a := get s 0 in
  let old := mem_read s (ctx s) a in
  mem_read s' (ctx s) a = [get s 1; nthw old 1; nthw old 2; nthw old 3] /\
  forall c' a', (ctx s, a) <> (c', a') -> mem_read s' c' a' = mem_read s c' a'.
Proof. exact mstore_element. Qed.
Print Assumptions c07_element_store.

Theorem c07_word_store : forall s s',
  exec_op MStoreW s = Ok s' ->
  mem_read s' (ctx s) (get s 0) = [get s 4; get s 3; get s 2; get s 1] /\
  forall c' a', (ctx s, get s 0) <> (c', a') -> mem_read s' c' a' = mem_read s c' a'.
Proof. exact mstorew_then_read. Qed.
Print Assumptions c07_word_store.

Theorem c07_addr_bound : forall o s,
  In o [MLoad; MLoadW; MStore; MStoreW] -> U32MAX < get s 0 ->
  exec_op o s = Err (MemAddr (get s 0)) s.
Proof. exact addr_bound_single. Qed.
Print Assumptions c07_addr_bound.

(* the two-word operations fail when either word would be at 2^32 or beyond *)
Theorem c07_addr_bound_double : forall o s,
  In o [MStream; Pipe] -> U32MAX < get s 12 + 1 ->
  exists a, exec_op o s = Err (MemAddr a) s /\ U32MAX < a.
Proof. exact addr_bound_double. Qed.
Print Assumptions c07_addr_bound_double.

(* call / dyncall / syscall: the caller's frame after a completed call *)
Theorem c07_call_frame : forall m T K fuel h sys s s',
  exec_call m T K fuel h sys s = Ok s' ->
  saved s' = saved s /\ ctx s' = ctx s /\ fn_hash s' = fn_hash s /\ in_syscall s' = false /\
  fmp s' = fmp s /\
  exists s2, (length (stk s2) <= 16)%nat /\ stk s' = stk s2 ++ skipn 16 (stk s) /\ oaddr s' = oaddr s.
Proof. exact call_frame_restored. Qed.
Print Assumptions c07_call_frame.

Theorem c07_depth_on_return : forall m T K f h (sys : bool) s s1 s2,
  cstep m (if sys then SysCall else Call) Noop (start_call_ctx s h sys) = Ok s1 ->
  (if word_eqb h DYN_HASH then exec_dyn m T K f s1
   else match table_get T h with Some body => exec_block m T K f body s1
                               | None => Err CodeBlockNotFound s1 end) = Ok s2 ->
  (16 < depth s2)%nat ->
  exec_call m T K (S f) h sys s = Err (DepthOnReturn (Z.of_nat (depth s2))) s2.
Proof. exact call_depth_on_return. Qed.
Print Assumptions c07_depth_on_return.

Theorem c07_callee_view : forall s h,
  stk (start_call_ctx s h false) = firstn 16 (stk s) /\ oaddr (start_call_ctx s h false) = [] /\
  ctx (start_call_ctx s h false) = clk s + 1 /\ fmp (start_call_ctx s h false) = FMP_MIN /\
  fn_hash (start_call_ctx s h false) = h /\
  ctx (start_call_ctx s h true) = 0 /\ fmp (start_call_ctx s h true) = SYSCALL_FMP_MIN /\
  in_syscall (start_call_ctx s h true) = true /\ fn_hash (start_call_ctx s h true) = fn_hash s /\
  mem (start_call_ctx s h true) = mem s.
Proof. exact callee_view. Qed.
Print Assumptions c07_callee_view.

Theorem c07_syscall_kernel_only : forall m T K f h s,
  kernel_has K h = false -> exec_block m T K (S f) (BSysCall h) s = Err NotInKernel s.
Proof. exact syscall_not_in_kernel. Qed.
Print Assumptions c07_syscall_kernel_only.

Theorem c07_caller : forall s,
  (in_syscall s = false -> exec_op Caller s = Err CallerNotInSyscall s) /\
  (in_syscall s = true ->
     exists s', exec_op Caller s = Ok s' /\
                firstn 4 (stk s') = [nthw (fn_hash s) 3; nthw (fn_hash s) 2; nthw (fn_hash s) 1; nthw (fn_hash s) 0]).
Proof. exact caller_semantics. Qed.
Print Assumptions c07_caller.

(* non-vacuity: a call with a deep caller stack completes and keeps the deep elements *)
Example c07_call_example :
  let callee := BSpan [Push 5; Add] in
  let h := block_hash callee in
  exists s, exec_program 50 1000 (mkProgram (BCall h) [] [(h, callee)])
              [1;2;3;4;5;6;7;8;9;10;11;12;13;14;15;16;17;18] [] = Ok s /\
            skipn 16 (stk s) = [17; 18] /\ ctx s = 0.
Proof.
  (* the callee's hash occurs twice (call target, table key): it is evaluated once, on the goal
     side ([vm_compute in H] records no cast, so Qed would evaluate again, lazily) *)
  intros callee h.
  eassert (E : h = _)
    by (unfold h, callee; cbn [block_hash]; unfold span_hash; rewrite hash_elements_block by reflexivity;
        permute_by_check; vm_compute; reflexivity).
  clearbody h. subst h.
  eexists. split; [vm_compute; reflexivity | split; reflexivity].
Qed.
