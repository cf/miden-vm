(* C14 - execution is deterministic and step-through agrees with the trace.
   Only statements, [exact], and Print Assumptions. *)
From Coq Require Import List.
From MV Require Import Core.Op Vm.State Vm.Step Vm.History.
Import ListNotations.
Open Scope nat_scope.

(* the rows recorded in a growable column are the written values whatever the initial capacity
   (expected-cycles hint), and rows already written are never disturbed by growth *)
Theorem c14_hint_independent : forall vs c1 c2 k,
  1 <= c1 -> 1 <= c2 -> k < length vs ->
  nth (1 + k) (History.run (repeat 0 c1) 0 vs) 0 = nth (1 + k) (History.run (repeat 0 c2) 0 vs) 0.
Proof. exact hint_independent. Qed.
Print Assumptions c14_hint_independent.

Theorem c14_growth_keeps_rows : forall vs col clk,
  1 <= length col -> clk < length col ->
  (forall k, k < length vs -> nth (clk + 1 + k) (History.run col clk vs) 0 = nth k vs 0) /\
  (forall i, i <= clk -> nth i (History.run col clk vs) 0 = nth i col 0).
Proof. exact run_rows. Qed.
Print Assumptions c14_growth_keeps_rows.

(* the clk operation pushes the clock of its own row *)
Theorem c14_clk : forall s, exec_op Clk s = Ok (replace_top 0 [clk s] s).
Proof. reflexivity. Qed.
Print Assumptions c14_clk.

