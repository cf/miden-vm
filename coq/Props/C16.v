(* C16 - standard-library 64-bit arithmetic is exact.
   Only statements, [exact], and Print Assumptions. *)
From Coq Require Import ZArith List String.
From MV Require Import Base.Field Vm.Pure Asm.Instr Asm.SpecDefs Asm.U64Instr Asm.U64More Asm.U64ShiftBase Asm.HintDefs Asm.U64Div Asm.U256Instr.
Import ListNotations.
Open Scope Z_scope.
Open Scope string_scope.

(* Operation lists of `exec.u64::<name>` as the real assembler inlines them from the compiled
   standard library (Gen/StdGen.v, regenerated on every run).  Operands [b_hi; b_lo; a_hi; a_lo]
   with b on top, every limb below 2^32; A64/B64 are the 64-bit values.  Each theorem holds for
   EVERY such operand pair and every stack: the result is exactly the integer function, every
   other position of the stack is untouched, the depth stays >= 16, and no failure occurs. *)
Theorem c16_wrapping_add : instr_spec_g (std_ops_of "u64::wrapping_add") 4 g4 no_pre
  (fun xs => limbs64 ((A64 xs + B64 xs) mod TWO64)).
Proof. exact u64_wrapping_add. Qed.
Print Assumptions c16_wrapping_add.
Theorem c16_overflowing_add : instr_spec_g (std_ops_of "u64::overflowing_add") 4 g4 no_pre
  (fun xs => (A64 xs + B64 xs) / TWO64 :: limbs64 ((A64 xs + B64 xs) mod TWO64)).
Proof. exact u64_overflowing_add. Qed.
Print Assumptions c16_overflowing_add.
Theorem c16_wrapping_sub : instr_spec_g (std_ops_of "u64::wrapping_sub") 4 g4 no_pre
  (fun xs => limbs64 ((A64 xs - B64 xs) mod TWO64)).
Proof. exact u64_wrapping_sub. Qed.
Print Assumptions c16_wrapping_sub.
Theorem c16_overflowing_sub : instr_spec_g (std_ops_of "u64::overflowing_sub") 4 g4 no_pre
  (fun xs => bool01 (A64 xs <? B64 xs)%Z :: limbs64 ((A64 xs - B64 xs) mod TWO64)).
Proof. exact u64_overflowing_sub. Qed.
Print Assumptions c16_overflowing_sub.
Theorem c16_lt : instr_spec_g (std_ops_of "u64::lt") 4 g4 no_pre (fun xs => [bool01 (A64 xs <? B64 xs)%Z]).
Proof. exact u64_lt. Qed.
Print Assumptions c16_lt.
Theorem c16_lte : instr_spec_g (std_ops_of "u64::lte") 4 g4 no_pre (fun xs => [bool01 (A64 xs <=? B64 xs)%Z]).
Proof. exact u64_lte. Qed.
Print Assumptions c16_lte.
Theorem c16_gt : instr_spec_g (std_ops_of "u64::gt") 4 g4 no_pre (fun xs => [bool01 (B64 xs <? A64 xs)%Z]).
Proof. exact u64_gt. Qed.
Print Assumptions c16_gt.
Theorem c16_gte : instr_spec_g (std_ops_of "u64::gte") 4 g4 no_pre (fun xs => [bool01 (B64 xs <=? A64 xs)%Z]).
Proof. exact u64_gte. Qed.
Print Assumptions c16_gte.
Theorem c16_eq : instr_spec_g (std_ops_of "u64::eq") 4 g4 no_pre (fun xs => [bool01 (A64 xs =? B64 xs)%Z]).
Proof. exact u64_eq. Qed.
Print Assumptions c16_eq.
Theorem c16_neq : instr_spec_g (std_ops_of "u64::neq") 4 g4 no_pre (fun xs => [bool01 (negb (A64 xs =? B64 xs)%Z)]).
Proof. exact u64_neq. Qed.
Print Assumptions c16_neq.
Theorem c16_eqz : instr_spec_g (std_ops_of "u64::eqz") 2 g2 no_pre
  (fun xs => [bool01 (nz xs 0 * TWO32 + nz xs 1 =? 0)%Z]).
Proof. exact u64_eqz. Qed.
Print Assumptions c16_eqz.

(* bitwise AND works limb by limb (and fails exactly on a limb that is not 32-bit), and the value of
   the limbs is the AND of the values *)
Theorem c16_and : instr_spec (std_ops_of "u64::and") 4
  (fun xs => if negb (u32max_ok (nz xs 1)) then Some (PNotU32 (nz xs 1) 0)
             else if negb (u32max_ok (nz xs 3)) then Some (PNotU32 (nz xs 3) 0)
             else if negb (u32max_ok (nz xs 0)) then Some (PNotU32 (nz xs 0) 0)
             else if negb (u32max_ok (nz xs 2)) then Some (PNotU32 (nz xs 2) 0) else None)
  (fun xs => [Z.land (nz xs 0) (nz xs 2); Z.land (nz xs 1) (nz xs 3)]).
Proof. exact u64_and. Qed.
Print Assumptions c16_and.
Theorem c16_and_value : forall ah al bh bl,
  0 <= ah -> 0 <= al < TWO32 -> 0 <= bh -> 0 <= bl < TWO32 ->
  Z.land (ah * TWO32 + al) (bh * TWO32 + bl) = Z.land ah bh * TWO32 + Z.land al bl.
Proof. exact land64_limbs. Qed.
Print Assumptions c16_and_value.

(* multiplication: the low 64 bits, and all 128 bits as four limbs *)
Theorem c16_wrapping_mul : instr_spec_g (std_ops_of "u64::wrapping_mul") 4 g4 no_pre
  (fun xs => limbs64 ((A64 xs * B64 xs) mod TWO64)).
Proof. exact u64_wrapping_mul. Qed.
Print Assumptions c16_wrapping_mul.
Theorem c16_overflowing_mul : instr_spec_g (std_ops_of "u64::overflowing_mul") 4 g4 no_pre
  (fun xs => (limbs64 ((A64 xs * B64 xs) / TWO64) ++ limbs64 ((A64 xs * B64 xs) mod TWO64))%list).
Proof. exact u64_overflowing_mul. Qed.
Print Assumptions c16_overflowing_mul.
Theorem c16_min : instr_spec_g (std_ops_of "u64::min") 4 g4 no_pre (fun xs => limbs64 (Z.min (A64 xs) (B64 xs))).
Proof. exact u64_min. Qed.
Print Assumptions c16_min.
Theorem c16_max : instr_spec_g (std_ops_of "u64::max") 4 g4 no_pre (fun xs => limbs64 (Z.max (A64 xs) (B64 xs))).
Proof. exact u64_max. Qed.
Print Assumptions c16_max.
(* OR and XOR work limb by limb on 32-bit limbs, and the value of the limbs is the operation on the values *)
Theorem c16_or : instr_spec_g (std_ops_of "u64::or") 4 g4 no_pre
  (fun xs => [Z.lor (nz xs 0) (nz xs 2); Z.lor (nz xs 1) (nz xs 3)]).
Proof. exact u64_or. Qed.
Print Assumptions c16_or.
Theorem c16_xor : instr_spec_g (std_ops_of "u64::xor") 4 g4 no_pre
  (fun xs => [Z.lxor (nz xs 0) (nz xs 2); Z.lxor (nz xs 1) (nz xs 3)]).
Proof. exact u64_xor. Qed.
Print Assumptions c16_xor.
Theorem c16_or_value : forall ah al bh bl,
  0 <= ah < TWO32 -> 0 <= al < TWO32 -> 0 <= bh < TWO32 -> 0 <= bl < TWO32 ->
  Z.lor (ah * TWO32 + al) (bh * TWO32 + bl) = Z.lor ah bh * TWO32 + Z.lor al bl.
Proof. exact lor64_limbs. Qed.
Print Assumptions c16_or_value.
Theorem c16_xor_value : forall ah al bh bl,
  0 <= ah < TWO32 -> 0 <= al < TWO32 -> 0 <= bh < TWO32 -> 0 <= bl < TWO32 ->
  Z.lxor (ah * TWO32 + al) (bh * TWO32 + bl) = Z.lxor ah bh * TWO32 + Z.lxor al bl.
Proof. exact lxor64_limbs. Qed.
Print Assumptions c16_xor_value.

(* shifts and rotations: operands [n; a_hi; a_lo] with the amount on top, 0 <= n < 64 *)
Theorem c16_shl : instr_spec_g (std_ops_of "u64::shl") 3 gshift no_pre
  (fun xs => limbs64 ((AS xs * 2 ^ (nz xs 0)) mod TWO64)).
Proof. exact u64_shl. Qed.
Print Assumptions c16_shl.
Theorem c16_rotl : instr_spec_g (std_ops_of "u64::rotl") 3 gshift no_pre
  (fun xs => limbs64 ((AS xs * 2 ^ (nz xs 0)) mod TWO64 + (AS xs * 2 ^ (nz xs 0)) / TWO64)).
Proof. exact u64_rotl. Qed.
Print Assumptions c16_rotl.

(* division: the quotient and remainder limbs come from the advice stack; for EVERY four canonical
   field elements a host may supply, a completed run leaves exactly a / b (a mod b, both), and with a
   zero divisor no hints let the run complete *)
Theorem c16_div : hint_sound (std_ops_of "u64::div") 4 g4 (fun xs => limbs64 (A64 xs / B64 xs)).
Proof. exact u64_div_hint_sound. Qed.
Print Assumptions c16_div.
Theorem c16_mod : hint_sound (std_ops_of "u64::mod") 4 g4 (fun xs => limbs64 (A64 xs mod B64 xs)).
Proof. exact u64_mod_hint_sound. Qed.
Print Assumptions c16_mod.
Theorem c16_divmod : hint_sound (std_ops_of "u64::divmod") 4 g4
  (fun xs => (limbs64 (A64 xs mod B64 xs) ++ limbs64 (A64 xs / B64 xs))%list).
Proof. exact u64_divmod_hint_sound. Qed.
Print Assumptions c16_divmod.
Theorem c16_div_zero : forall h1 h2 h3 h4, canon h1 -> canon h2 -> canon h3 -> canon h4 ->
  view_rejects (hinted (std_ops_of "u64::div") [h1; h2; h3; h4]) 4 g4 (fun xs => B64 xs = 0).
Proof. exact u64_div_zero. Qed.
Print Assumptions c16_div_zero.
Theorem c16_mod_zero : forall h1 h2 h3 h4, canon h1 -> canon h2 -> canon h3 -> canon h4 ->
  view_rejects (hinted (std_ops_of "u64::mod") [h1; h2; h3; h4]) 4 g4 (fun xs => B64 xs = 0).
Proof. exact u64_mod_zero. Qed.
Print Assumptions c16_mod_zero.
Theorem c16_divmod_zero : forall h1 h2 h3 h4, canon h1 -> canon h2 -> canon h3 -> canon h4 ->
  view_rejects (hinted (std_ops_of "u64::divmod") [h1; h2; h3; h4]) 4 g4 (fun xs => B64 xs = 0).
Proof. exact u64_divmod_zero. Qed.
Print Assumptions c16_divmod_zero.

(* 256-bit procedures: operands b at positions 0..7 and a at positions 8..15, most significant limb
   first, every limb below 2^32 (V256 is the value, limbs256 the eight result limbs) *)
Theorem c16_u256_add : instr_spec_g (std_ops_of "u256::add_unsafe") 16 g16 no_pre
  (fun xs => limbs256 ((V256 xs 8 + V256 xs 0) mod 2 ^ 256)).
Proof. exact u256_add. Qed.
Print Assumptions c16_u256_add.
Theorem c16_u256_and : instr_spec_g (std_ops_of "u256::and") 16 g16 no_pre (limbwise Z.land).
Proof. exact u256_and. Qed.
Print Assumptions c16_u256_and.
Theorem c16_u256_xor : instr_spec_g (std_ops_of "u256::xor") 16 g16 no_pre (limbwise Z.lxor).
Proof. exact u256_xor. Qed.
Print Assumptions c16_u256_xor.
Theorem c16_u256_or : instr_spec_g (std_ops_of "u256::or") 16 g16 no_pre (limbwise Z.lor).
Proof. exact u256_or. Qed.
Print Assumptions c16_u256_or.
Theorem c16_u256_iszero : instr_spec_g (std_ops_of "u256::iszero_unsafe") 8 (fun _ => true) no_pre
  (fun xs => [bool01 (forallb (fun k => nz xs k =? 0)%Z (seq 0 8))]).
Proof. exact u256_iszero. Qed.
Print Assumptions c16_u256_iszero.
Theorem c16_u256_eq : instr_spec_g (std_ops_of "u256::eq_unsafe") 16 (fun _ => true) no_pre
  (fun xs => [bool01 (forallb (fun k => nz xs k =? nz xs (8 + k))%Z (seq 0 8))]).
Proof. exact u256_eq. Qed.
Print Assumptions c16_u256_eq.
Theorem c16_u256_sub : instr_spec_g (std_ops_of "u256::sub_unsafe") 16 g16 no_pre
  (fun xs => limbs256 ((V256 xs 8 - V256 xs 0) mod 2 ^ 256)).
Proof. exact u256_sub. Qed.
Print Assumptions c16_u256_sub.
