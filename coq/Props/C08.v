(* C08 - the program commitment is the specified MAST hash of the executable code.
   Only statements, [exact], and Print Assumptions. *)
From Coq Require Import ZArith List.
From MV Require Import Core.Op Core.Batch Core.BatchProps Core.Rpo Core.RpoCheck Core.Mast Gen.ConstGen.
Import ListNotations.
Open Scope Z_scope.

(* batching rules: 8 group slots per batch, at most 8 groups used, at most 9 operations per group *)
Theorem c08_batch_shape : forall ops, Forall batch_ok (batch_ops ops).
Proof. exact batch_ops_shape. Qed.
Print Assumptions c08_batch_shape.

(* the batches hold exactly the span's operations, in order (nothing lost, added or reordered) *)
Theorem c08_batches_keep_ops : forall ops, flat_map b_ops (batch_ops ops) = ops.
Proof. exact batch_ops_concat. Qed.
Print Assumptions c08_batches_keep_ops.

(* opcodes are 7-bit and determine the operation up to the data it carries *)
Theorem c08_opcode_range : forall o, 0 <= opcode o < 128.
Proof. exact opcode_range. Qed.
Print Assumptions c08_opcode_range.
Theorem c08_opcode_injective : forall a b, opcode a = opcode b -> same_kind a b.
Proof. exact opcode_injective. Qed.
Print Assumptions c08_opcode_injective.

(* the hash of each block kind is the domain-separated RPO hash of its children / its groups *)
Theorem c08_block_hash : forall a b body ops h,
  block_hash (BJoin a b) = merge_in_domain (block_hash a) (block_hash b) JOIN_DOMAIN /\
  block_hash (BSplit a b) = merge_in_domain (block_hash a) (block_hash b) SPLIT_DOMAIN /\
  block_hash (BLoop body) = merge_in_domain (block_hash body) ZERO_WORD LOOP_DOMAIN /\
  block_hash (BCall h) = merge_in_domain h ZERO_WORD CALL_DOMAIN /\
  block_hash (BSysCall h) = merge_in_domain h ZERO_WORD SYSCALL_DOMAIN /\
  block_hash BDyn = DYN_HASH /\
  block_hash (BSpan ops) = hash_elements (flat_map b_groups (batch_ops ops)).
Proof. intros. repeat split. Qed.
Print Assumptions c08_block_hash.

(* the domains are pairwise different and the dyn constant is the hash it is documented to be *)
Theorem c08_domains_distinct :
  NoDup [JOIN_DOMAIN; SPLIT_DOMAIN; LOOP_DOMAIN; CALL_DOMAIN; SYSCALL_DOMAIN; DYN_DOMAIN; SPAN_DOMAIN] /\
  merge_in_domain ZERO_WORD ZERO_WORD DYN_DOMAIN = DYN_HASH.
Proof.
  split; [|unfold merge_in_domain; permute_by_check; reflexivity].
  repeat constructor; cbn; intros H; repeat (destruct H as [H|H]; [discriminate H|]); exact H.
Qed.
Print Assumptions c08_domains_distinct.
